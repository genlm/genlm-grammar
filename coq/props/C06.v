(* Property C06: normal-form transformations preserve the weighted language.
   Statements only.  Term-wise theorems (any commutative semiring, cyclic grammars included):
   bottom-up and top-down trimming, renaming, start separation; tree bijections for unfold,
   separate_terminals and binarize; equation-level theorems for nullary, unary and unary-cycle removal.
   cnf as a whole is decided by the correspondence run only: its outputs
   are read back and evaluated by the reference semantics, which C02_reference_is_tree_sum proves
   to be the derivation sum. *)
From Coq Require Import List ZArith.
From GV.lib Require Import Semiring BigSum.
From GV.model Require Import Cfg Transform.
From GV.gen Require Import Gen_Cfg.
From GV.proofs Require Import CkyProofs TrimProofs GenCfgBridge UnfoldProofs.
Import ListNotations.

(* cotrim = trim(bottomup_only): dropping every rule that mentions a non-generating symbol
   changes the weight of no string from any nonterminal at any height; the dropped symbols
   have weight zero everywhere, and the computed set is exactly the productive symbols. *)
Theorem C06_cotrim_preserves : forall (S : SR) (G : grammar S),
  (forall h X xs, W (cotrim G) h X xs = W G h X xs) /\
  (forall X, ~ In X (generating G) -> forall h xs, W G h X xs = s0) /\
  (forall X, In X (generating G) <-> productive G X).
Proof.
  intros S G. split; [intros; apply cotrim_W|]. split; [intros; apply nongenerating_W_zero; assumption|].
  intros X; split; [apply generating_sound|apply generating_complete].
Qed.
Print Assumptions C06_cotrim_preserves.

Theorem C06_rename_preserves : forall (S : SR) (G : grammar S) (f : nat -> nat) h X xs,
  (forall p q, f p = f q -> p = q) -> W (rename_g f G) h (f X) xs = W G h X xs.
Proof. intros; apply W_rename; assumption. Qed.
Print Assumptions C06_rename_preserves.

Theorem C06_separate_start_preserves : forall (S : SR) (G : grammar S) (s' s : nat) h xs,
  (forall r, In r G -> rhead r <> s') -> (forall r, In r G -> ~ In (N s') (rbody r)) -> s' <> s ->
  W (snd (separate_start s' s G)) (Datatypes.S h) (fst (separate_start s' s G)) xs
    = if on_rhs s G then W G h s xs else W G (Datatypes.S h) s xs.
Proof. intros; apply separate_start_W; assumption. Qed.
Print Assumptions C06_separate_start_preserves.

Example C06_cotrim_nonvacuous :
  cotrim [((mkq 1%Z 2%positive : QcSR), 0, [N 1; T 0]); (mkq 1%Z 3%positive, 0, [T 1]); (mkq 1%Z 5%positive, 1, [N 1])]
    = [((mkq 1%Z 3%positive : QcSR), 0, [T 1])].
Proof. vm_compute. reflexivity. Qed.
Print Assumptions C06_cotrim_nonvacuous.

(* The transformations the theorems above are about are the ones the code performs: the definitions
   regenerated from cfg.py on every run (CFG.rename, CFG._trim with the set of generating symbols,
   CFG.separate_start) coincide with the models. *)
Theorem C06_code_is_model : forall (S : SR) (G : grammar S) (f : nat -> nat) (s' s : nat),
  gen_rename S f G = rename_g f G /\ gen_trim S (gen_sym (generating G)) G = cotrim G /\
  gen_separate_start S s' s G = separate_start s' s G.
Proof.
  intros S G f s' s.
  exact (conj (gen_rename_model S f G) (conj (gen_cotrim_model S G) (gen_separate_start_model S s' s G))).
Qed.
Print Assumptions C06_code_is_model.

(* ---------------------------------------------------------------------------------------------
   Tree-level and equation-level preservation theorems for the remaining transformations.
   "Solutions": f solves G when f X xs = sum over the rules X -> body of w * Wb f body xs for all X, xs
   (the grammar's equation system; the string-weight function is its least solution when it exists).
   "Trees": derivation trees carry the index of their rule, so duplicate rules give distinct trees.
   --------------------------------------------------------------------------------------------- *)
From GV.model Require Import Transform2.
From GV.proofs Require UnfoldTreeProofs SepTermProofs BinTreeProofs FoldProofs NullUnaryProofs.

(* CFG.unfold (regenerated): one step of the unfolded grammar's equations is one step of the original
   equations with the k-th body symbol of rule i expanded once more. *)
Theorem C06_unfold_one_step : forall (S : SR) (G : grammar S) (i k : nat) (s : rule S) (Y : nat)
    (f : nat -> list nat -> S) (X : nat) (xs : list nat),
  nth_error G i = Some s -> nth_error (rbody s) k = Some (N Y) ->
  gstep S (gen_unfold S i k G) f X xs
  = sadd (bsum (kept S i G) (term S f X xs))
         (if Nat.eqb (rhead s) X then smul (rw s) (Wb_at S f (gstep S G f) k (rbody s) xs) else s0).
Proof. intros S G i k s Y f X xs Hs Hk. exact (unfold_one_step S G i k s Y f X xs Hs Hk). Qed.
Print Assumptions C06_unfold_one_step.

Theorem C06_unfold_preserves_solutions : forall (S : SR) (G : grammar S) (i k : nat) (f : nat -> list nat -> S),
  (forall X xs, f X xs = gstep S G f X xs) ->
  forall X xs, gstep S (gen_unfold S i k G) f X xs = f X xs.
Proof. intros; apply unfold_preserves_solutions; assumption. Qed.
Print Assumptions C06_unfold_preserves_solutions.

(* CFG.unfold: the derivation trees of G and of unfold(i, k) are in one-to-one correspondence (phi, psi
   mutually inverse) preserving root, yield and weight; heights change by at most a factor two.  Hence
   every (finite or infinite) derivation sum is preserved term by term, over every commutative semiring,
   duplicate rules included. *)
Theorem C06_unfold_trees : forall (S : SR) (G : grammar S) (i k : nat) (s : rule S) (Y : nat),
  nth_error G i = Some s -> nth_error (rbody s) k = Some (N Y) ->
  let G' := gen_unfold S i k G in
  let phi := UnfoldTreeProofs.phi S G i k s Y in
  let psi := UnfoldTreeProofs.psi S G i k s Y in
  (forall X t, twf S G (N X) t ->
     twf S G' (N X) (phi t) /\ tyield (phi t) = tyield t /\ tweight (phi t) = tweight t /\
     theight (phi t) <= theight t /\ psi (phi t) = t) /\
  (forall X t', twf S G' (N X) t' ->
     twf S G (N X) (psi t') /\ tyield (psi t') = tyield t' /\ tweight (psi t') = tweight t' /\
     theight (psi t') <= 2 * theight t' /\ phi (psi t') = t').
Proof.
  intros S G i k s Y Hs Hk G' phi psi. split.
  - intros X t. exact (UnfoldTreeProofs.phi_all S G i k s Y Hs Hk X t).
  - intros X t'. exact (UnfoldTreeProofs.psi_all S G i k s Y Hs Hk X t').
Qed.
Print Assumptions C06_unfold_trees.

(* ... and in terms of the reference semantics W: every height-bounded derivation sum of one grammar is
   the sum over a duplicate-free sub-list of the trees enumerated for the other grammar (at height h,
   resp. 2h) with the same yields and weights. *)
Theorem C06_unfold_sums : forall (S : SR) (G : grammar S) (i k : nat) (s : rule S) (Y : nat),
  nth_error G i = Some s -> nth_error (rbody s) k = Some (N Y) ->
  forall h X xs,
  (NoDup (map (UnfoldTreeProofs.phi S G i k s Y) (trees G h X)) /\
   incl (map (UnfoldTreeProofs.phi S G i k s Y) (trees G h X)) (trees (gen_unfold S i k G) h X) /\
   W G h X xs = bsum (filter (yields xs) (map (UnfoldTreeProofs.phi S G i k s Y) (trees G h X))) tweight) /\
  (NoDup (map (UnfoldTreeProofs.psi S G i k s Y) (trees (gen_unfold S i k G) h X)) /\
   incl (map (UnfoldTreeProofs.psi S G i k s Y) (trees (gen_unfold S i k G) h X)) (trees G (2 * h) X) /\
   W (gen_unfold S i k G) h X xs = bsum (filter (yields xs) (map (UnfoldTreeProofs.psi S G i k s Y) (trees (gen_unfold S i k G) h X))) tweight).
Proof.
  intros S G i k s Y Hs Hk h X xs. split.
  - exact (UnfoldTreeProofs.W_sub_sum S G i k s Y Hs Hk h X xs).
  - exact (UnfoldTreeProofs.W'_sub_sum S G i k s Y Hs Hk h X xs).
Qed.
Print Assumptions C06_unfold_sums.

(* CFG.separate_terminals (model with preterminal naming pt, injective and new to G): one-to-one
   correspondence of derivation trees preserving root, yield and weight; heights grow by at most one. *)
Theorem C06_separate_terminals_trees : forall (S : SR) (pt : nat -> nat) (G : grammar S),
  (forall a b, pt a = pt b -> a = b) ->
  (forall a r, In r G -> rhead r <> pt a /\ ~ In (N (pt a)) (rbody r)) ->
  let G' := separate_terminals pt G in
  let phi := SepTermProofs.phi S pt G in
  let psi := SepTermProofs.psi S G in
  (forall X t, twf S G (N X) t ->
     twf S G' (N X) (phi t) /\ tyield (phi t) = tyield t /\ tweight (phi t) = tweight t /\
     theight (phi t) <= Datatypes.S (theight t) /\ psi (phi t) = t) /\
  (forall X t', (forall a, X <> pt a) -> twf S G' (N X) t' ->
     twf S G (N X) (psi t') /\ tyield (psi t') = tyield t' /\ tweight (psi t') = tweight t' /\
     theight (psi t') <= theight t' /\ phi (psi t') = t').
Proof.
  intros S pt G Hinj Hfresh G' phi psi. split.
  - intros X t. exact (SepTermProofs.phi_all S pt G X t).
  - intros X t' HX. exact (SepTermProofs.psi_all S pt G Hinj Hfresh X HX t').
Qed.
Print Assumptions C06_separate_terminals_trees.

(* CFG.binarize (model with a counter of fresh names, all names of G below it): one-to-one correspondence
   of derivation trees preserving root, yield and weight (the invented rules have weight one); heights
   grow by at most the factor 1 + (longest body - 2). *)
Theorem C06_binarize_trees : forall (S : SR) (fresh : nat) (G : grammar S),
  (forall r, In r G -> rhead r < fresh) ->
  (forall r Y, In r G -> In (N Y) (rbody r) -> Y < fresh) ->
  let G' := binarize fresh G in
  let phi := BinTreeProofs.phi S fresh G in
  let psi := BinTreeProofs.psi S fresh G in
  (forall X t, twf S G (N X) t ->
     twf S G' (N X) (phi t) /\ tyield (phi t) = tyield t /\ tweight (phi t) = tweight t /\
     theight (phi t) <= BinTreeProofs.hb S G (theight t) /\ psi (phi t) = t) /\
  (forall X t', X < fresh -> twf S G' (N X) t' ->
     twf S G (N X) (psi t') /\ tyield (psi t') = tyield t' /\ tweight (psi t') = tweight t' /\
     theight (psi t') <= theight t' /\ phi (psi t') = t').
Proof.
  intros S fresh G Hh Hb G' phi psi. split.
  - intros X t. exact (BinTreeProofs.phi_all S fresh G Hh X t).
  - intros X t' HX. exact (BinTreeProofs.psi_all S fresh G Hh Hb X HX t').
Qed.
Print Assumptions C06_binarize_trees.

(* Equation level: solutions of G extend to solutions of the transformed grammar (agreeing on the old
   nonterminals), and solutions of the transformed grammar restrict to solutions of G. *)
Theorem C06_binarize_solutions : forall (S : SR) (fresh : nat) (G : grammar S),
  (forall r, In r G -> rhead r < fresh) ->
  (forall r Y, In r G -> In (N Y) (rbody r) -> Y < fresh) ->
  (forall f, FoldProofs.solves S G f ->
     FoldProofs.solves S (binarize fresh G) (FoldProofs.binarize_ext S fresh G f) /\
     (forall Z xs, Z < fresh -> FoldProofs.binarize_ext S fresh G f Z xs = f Z xs)) /\
  (forall f', FoldProofs.solves S (binarize fresh G) f' ->
     forall Z xs, Z < fresh -> f' Z xs = gstep S G f' Z xs).
Proof.
  intros S fresh G Hh Hb. split.
  - intros f Hf. exact (FoldProofs.binarize_extend S fresh G f Hh Hb Hf).
  - intros f' Hf'. exact (FoldProofs.binarize_restrict S fresh G f' Hh Hf').
Qed.
Print Assumptions C06_binarize_solutions.

Theorem C06_separate_terminals_solutions : forall (S : SR) (pt : nat -> nat) (G : grammar S),
  (forall p q, pt p = pt q -> p = q) ->
  (forall r a, In r G -> In a (terminals_of G) -> rhead r <> pt a) ->
  (forall r a, In r G -> In a (terminals_of G) -> ~ In (N (pt a)) (rbody r)) ->
  (forall f, FoldProofs.solves S G f ->
     FoldProofs.solves S (separate_terminals pt G) (FoldProofs.sep_ext S pt G f) /\
     (forall Z ys, (forall a, In a (terminals_of G) -> Z <> pt a) -> FoldProofs.sep_ext S pt G f Z ys = f Z ys)) /\
  (forall f', FoldProofs.solves S (separate_terminals pt G) f' ->
     forall Z xs, (forall a, In a (terminals_of G) -> Z <> pt a) -> f' Z xs = gstep S G f' Z xs).
Proof.
  intros S pt G Hinj Hh Hb. split.
  - intros f Hf. destruct (FoldProofs.separate_terminals_extend S pt G f Hinj Hh Hb Hf) as (H1 & _ & H3).
    split; assumption.
  - intros f' Hf'. exact (proj2 (FoldProofs.separate_terminals_restrict S pt G f' Hinj Hh Hf')).
Qed.
Print Assumptions C06_separate_terminals_solutions.

(* CFG._push_null_weights (removal of empty rules; nullw = weights of the empty string, nn = the NotNull
   naming, s = the start symbol, which occurs in no body): from a solution f of G with f X [] = nullw X
   one obtains a solution of the null-free grammar which gives the start symbol its old weights and
   gives NotNull(X) the weight of X on every non-empty string (and zero on the empty string). *)
Theorem C06_nullaryremove_solutions : forall (S : SR) (nullw : nat -> S) (nn : nat -> nat) (s : nat) (G : grammar S)
    (f : nat -> list nat -> S),
  (forall p q, nn p = nn q -> p = q) -> (forall X, s <> nn X) ->
  (forall r X, In r G -> rhead r <> nn X) -> (forall r X, In r G -> ~ In (N (nn X)) (rbody r)) ->
  (forall r, In r G -> ~ In (N s) (rbody r)) ->
  FoldProofs.solves S G f -> (forall X, f X [] = nullw X) ->
  FoldProofs.solves S (push_null_weights nullw nn s G) (NullUnaryProofs.pn_ext S nullw nn s G f) /\
  (forall xs, NullUnaryProofs.pn_ext S nullw nn s G f s xs = f s xs) /\
  (forall X xs, nullw X <> s0 -> X <> s ->
     NullUnaryProofs.pn_ext S nullw nn s G f (nn X) xs = match xs with [] => s0 | _ => f X xs end) /\
  (forall Z xs, Z <> s -> (forall X, Z <> nn X) -> nullw Z = s0 -> NullUnaryProofs.pn_ext S nullw nn s G f Z xs = f Z xs).
Proof.
  intros S nullw nn s G f Hinj Hs_nn Hhead_nn Hbody_nn Hbody_s Hsol Hf0.
  split; [apply NullUnaryProofs.push_null_extend; assumption|].
  split; [intros xs; apply NullUnaryProofs.pn_ext_start|].
  split.
  - intros X xs Hn Hs. apply NullUnaryProofs.pn_ext_nn; assumption.
  - intros Z xs Hs Hnn H0. apply NullUnaryProofs.pn_ext_plain; assumption.
Qed.
Print Assumptions C06_nullaryremove_solutions.

(* CFG.unaryremove with a closure table K = I + U K of the unary-rule graph U (what Lehmann's elimination
   is proved to return, C15): every solution of the unary-free grammar solves G, and one step of the
   unary-free grammar satisfies the unary-expanded equation. *)
Theorem C06_unaryremove_solutions : forall (S : SR) (G : grammar S) (nts : list nat) (K : nat -> nat -> S),
  NoDup nts -> (forall r, In r G -> In (rhead r) nts) ->
  (forall r Z, In r G -> rbody r = [N Z] -> In Z nts) ->
  (forall Y X, In Y nts -> In X nts ->
     K Y X = sadd (if Nat.eqb Y X then s1 else s0) (bsum nts (fun Z => smul (NullUnaryProofs.Umat S G Y Z) (K Z X)))) ->
  (forall f', FoldProofs.solves S (unaryremove K nts G) f' -> FoldProofs.solves S G f') /\
  (forall f Y xs, In Y nts ->
     gstep S (unaryremove K nts G) f Y xs =
     sadd (NullUnaryProofs.NUpart S G f Y xs) (bsum nts (fun Z => smul (NullUnaryProofs.Umat S G Y Z) (gstep S (unaryremove K nts G) f Z xs)))).
Proof.
  intros S G nts K Hnd Hh Hu HK. split.
  - intros f' Hf'. exact (NullUnaryProofs.unaryremove_restrict S G nts K Hnd f' Hh Hu HK Hf').
  - intros f Y xs HY. apply NullUnaryProofs.unaryremove_expanded; try assumption.
    intros r Hr _. apply Hh; exact Hr.
Qed.
Print Assumptions C06_unaryremove_solutions.

(* Top-down trimming (CFG.trim): the regenerated CFG._trim applied to ANY set of symbols that is closed under the
   rules that can contribute (a kept head's rule has its whole body kept, or mentions a non-generating symbol)
   preserves every derivation sum of every kept nonterminal at every height, over any commutative semiring; the
   surviving rules are the kept ones in their original order.  The set the model of CFG.trim computes (reached from
   the start symbol through rules with generating bodies; model/TopDown.v, compared rule list by rule list with the
   implementation in C07's run) is such a set and is exactly that reachability relation; hence trimming preserves
   the weight of every string from the start symbol, also when the start symbol is non-generating (empty result). *)
From GV.model Require TopDown.
From GV.proofs Require TopDownTrimProofs ReachProofs.
Theorem C06_topdown_trim_preserves : forall (S : SR) (G : grammar S) (keep : sym -> bool),
  TopDownTrimProofs.td_closed G keep ->
  (forall h X xs, keep (N X) = true -> W (gen_trim S keep G) h X xs = W G h X xs) /\
  gen_trim S keep G = filter (fun r => andb (keep (N (rhead r))) (forallb keep (rbody r))) G.
Proof.
  intros S G keep H. split.
  - intros h X xs HX. exact (TopDownTrimProofs.topdown_trim_W S G keep H h X xs HX).
  - exact (TopDownTrimProofs.topdown_trim_is_filter S G keep).
Qed.
Print Assumptions C06_topdown_trim_preserves.

Theorem C06_trim_preserves : forall (S : SR) (G : grammar S) (s : nat),
  (forall h xs, W (TopDown.trim_model s G) h s xs = W G h s xs) /\
  (forall X h xs, In X (TopDown.reachable G s) -> W (TopDown.trim_model s G) h X xs = W G h X xs) /\
  TopDownTrimProofs.td_closed G (TopDown.keep_nts (TopDown.reachable G s)) /\
  (forall X, In X (TopDown.reachable G s) -> ReachProofs.reach_rel G s X) /\
  (In s (generating G) -> forall X, ReachProofs.reach_rel G s X -> In X (TopDown.reachable G s)) /\
  (forall X, In X (TopDown.reachable G s) -> In X (generating G)).
Proof.
  intros S G s.
  split; [intros h xs; exact (ReachProofs.trim_model_W S G s h xs)|].
  split; [intros X h xs HX; exact (ReachProofs.trim_model_W_reached S G s X h xs HX)|].
  split; [exact (ReachProofs.reachable_td_closed S G s)|].
  split; [intros X HX; exact (ReachProofs.reachable_sound S G s X HX)|].
  split; [intros Hs X HX; exact (ReachProofs.reachable_complete S G s X Hs HX)|].
  intros X HX; exact (ReachProofs.reachable_generating S G s X HX).
Qed.
Print Assumptions C06_trim_preserves.

(* unarycycleremove (equation level; model proofs/UnaryCycleProofs.v of the construction: every nonterminal X on a
   unary cycle keeps only the rules X -> bot(X2), weight K[X, X2], for the X2 of its strongly connected component of
   the unary graph, and its other rules -- all but the unary rules inside the component -- move to the fresh copy
   bot(X); K is the closure table of the component's unary weights, K = I + U K, which is what C15 proves Lehmann's
   elimination returns): every solution of the transformed grammar solves the original grammar on the original
   nonterminals, and a cyclic nonterminal only has rules into bot copies (no unary cycle is left through it). *)
From GV.proofs Require UnaryCycleProofs.
Theorem C06_unarycycleremove_solutions : forall (S : SR) (scc : nat -> nat) (cyc : nat -> bool) (bot : nat -> nat)
    (K : nat -> nat -> S) (nts : list nat) (G : grammar S),
  NoDup nts ->
  (forall r, In r G -> In (rhead r) nts) ->
  (forall r Y, In r G -> In (N Y) (rbody r) -> In Y nts) ->
  (forall X Y, bot X = bot Y -> X = Y) ->
  (forall X, ~ In (bot X) nts) ->
  (forall r, In r G -> UnaryCycleProofs.intra S scc r = true ->
     cyc (rhead r) = true /\ (forall Y, rbody r = [N Y] -> cyc Y = true)) ->
  (forall X X2, In X nts -> In X2 nts -> cyc X = true -> cyc X2 = true -> scc X2 = scc X ->
     K X X2 = sadd (if Nat.eqb X X2 then s1 else s0)
                   (bsum nts (fun Y => if andb (cyc Y) (Nat.eqb (scc Y) (scc X))
                                       then smul (UnaryCycleProofs.Uin S scc G X Y) (K Y X2) else s0))) ->
  (forall f', FoldProofs.solves S (UnaryCycleProofs.ucr S scc cyc bot K nts G) f' ->
     forall X xs, In X nts -> f' X xs = gstep S G f' X xs) /\
  (forall r, In r (UnaryCycleProofs.ucr S scc cyc bot K nts G) -> In (rhead r) nts -> cyc (rhead r) = true ->
     exists X2, rbody r = [N (bot X2)]).
Proof.
  intros S scc cyc bot K nts G Hnd Hh Hb Hinj Hfresh Hintra HK. split.
  - intros f' Hf' X xs HX.
    exact (UnaryCycleProofs.ucr_restrict S scc cyc bot K nts G Hnd Hh Hb Hinj Hfresh Hintra HK f' Hf' X xs HX).
  - intros r Hr Hhd Hc.
    exact (UnaryCycleProofs.ucr_no_intra_cycle_rules S scc cyc bot K nts G Hfresh r Hr Hhd Hc).
Qed.
Print Assumptions C06_unarycycleremove_solutions.
