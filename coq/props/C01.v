(* Property C01: the next-token mask is exactly the set of viable continuations.
   Proofs: the prefix transducer in proofs/PrefixMachine.v, viability as a tree sum in PrefixTrees.v, its
   tabulation in PrefixChart.v, EOS wrapping in NormProofs.v, the string-level reading in MaskStringsProofs.v
   and MaskEosProofs.v. *)
From Coq Require Import List.
From GV.lib Require Import Semiring.
From GV.model Require Import Cfg MachSpec Fst Prefix Norm.
From GV.gen Require Import Gen_Machines.
From GV.proofs Require Import PrefixMachine PrefixTrees PrefixChart NormProofs.
Import ListNotations.

(* the regenerated prefix transducer: each (string, prefix) pair exactly once *)
Theorem C01_prefix_transducer : forall (S : SR) (V : list nat) (s p : list nat) (fuel : nat),
  NoDup V -> (forall a, In a s -> In a V) -> length s <= fuel ->
  trel (prefix_transducer V) fuel s p = if is_prefix p s then @s1 S else @s0 S.
Proof. intros; apply prefix_transducer_spec; assumption. Qed.
Print Assumptions C01_prefix_transducer.

(* Boolean semiring: the reference mask bit of a context p ("prefix weight of p is true at some
   height") holds exactly when some derivation tree built from rules of weight true has a yield
   that begins with p, i.e. p can still be completed to a string of the grammar.  Grammars with
   empty rules, unary chains/cycles, left/right recursion and useless symbols are all covered;
   for a non-viable context every extension is non-viable too, so its mask is empty. *)
Theorem C01_mask_bit_is_viability : forall (G : grammar BoolSR) (X : nat) (p : list nat),
  (exists h, Wpre G h X p = true) <->
  (exists t, twf BoolSR G (N X) t /\ is_prefix p (tyield t) = true /\ tweight t = true).
Proof. intros; apply Wpre_bool_viable. Qed.
Print Assumptions C01_mask_bit_is_viability.

(* the executable tabulation evaluated by the correspondence run returns that bit *)
Theorem C01_executable_mask : forall (G : grammar BoolSR) (fuel X : nat) (xs : list nat) (v : bool),
  prefix_lang G fuel X xs = Some v -> exists H, forall h, H <= h -> Wpre G h X xs = v.
Proof. intros; eapply prefix_lang_stable; eassumption. Qed.
Print Assumptions C01_executable_mask.

(* EOS wrapping: in the wrapped grammar the complete strings are exactly xs ++ [eos] with xs a
   string of the grammar, so eos is a viable continuation of a context exactly when the context
   is a complete string. *)
Theorem C01_eos_iff_complete : forall (G : grammar BoolSR) (s' s eos : nat) (h : nat) (xs : list nat),
  (forall r, In r G -> rhead r <> s') -> (forall r, In r G -> ~ In (N s') (rbody r)) ->
  W (add_eos s' s eos G) (Datatypes.S h) s' (xs ++ [eos]) = W G h s xs.
Proof. intros; apply add_eos_W; assumption. Qed.
Print Assumptions C01_eos_iff_complete.

(* String level: a context is viable (its mask bit is set at some height) exactly when it is a prefix of a STRING of
   the grammar; viability is prefix-closed, so a context that is not viable has an empty mask: every extension by a
   token is non-viable at every height. *)
From GV.proofs Require MaskStringsProofs.
Theorem C01_viable_iff_completable : forall (G : grammar BoolSR) (X : nat) (p : list nat),
  ((exists h, Wpre G h X p = true) <-> (exists xs, is_prefix p xs = true /\ MaskStringsProofs.in_language G X xs)) /\
  (forall q, (exists h, Wpre G h X (p ++ q) = true) -> (exists h, Wpre G h X p = true)) /\
  ((forall h, Wpre G h X p = false) -> forall t h, Wpre G h X (p ++ [t]) = false) /\
  (forall xs, MaskStringsProofs.in_language G X xs <-> exists t, twf BoolSR G (N X) t /\ tyield t = xs /\ tweight t = true).
Proof.
  intros G X p.
  split; [exact (MaskStringsProofs.viable_iff_completable G X p)|].
  split; [intros q; exact (MaskStringsProofs.viable_prefix_closed G X p q)|].
  split; [exact (MaskStringsProofs.nonviable_mask_empty G X p)|intros xs; exact (MaskStringsProofs.language_iff_tree G X xs)].
Qed.
Print Assumptions C01_viable_iff_completable.

(* End to end, on the EOS-wrapped grammar the language model works with (s' fresh): after the context ctx a token t
   other than eos is offered (its mask bit is set at some height) exactly when ctx t can be completed to a string of the
   grammar; eos is offered exactly when ctx is a complete string of the grammar (eos not being a terminal of the
   grammar); and the strings of the wrapped grammar are the strings of the grammar followed by eos. *)
From GV.proofs Require MaskEosProofs.
Theorem C01_mask_end_to_end : forall (G : grammar BoolSR) (s' s eos : nat) (ctx : list nat),
  (forall r, In r G -> rhead r <> s') -> (forall r, In r G -> ~ In (N s') (rbody r)) ->
  (forall r, In r G -> ~ In (T eos) (rbody r)) ->
  (forall t, t <> eos ->
     ((exists h, Wpre (add_eos s' s eos G) h s' (ctx ++ [t]) = true) <->
      exists rest, MaskStringsProofs.in_language G s (ctx ++ t :: rest))) /\
  ((exists h, Wpre (add_eos s' s eos G) h s' (ctx ++ [eos]) = true) <-> MaskStringsProofs.in_language G s ctx) /\
  (forall ys, MaskStringsProofs.in_language (add_eos s' s eos G) s' ys <->
     exists xs, ys = xs ++ [eos] /\ MaskStringsProofs.in_language G s xs).
Proof.
  intros G s' s eos ctx Hh Hb He.
  split; [intros t Ht; exact (MaskEosProofs.mask_token_gen G s' s eos ctx t Hh Hb Ht)|].
  split; [exact (MaskEosProofs.mask_eos_syntactic G s' s eos ctx Hh Hb He)|].
  intros ys. exact (MaskEosProofs.eos_language G s' s eos ys Hh Hb).
Qed.
Print Assumptions C01_mask_end_to_end.
