(* Property C15: the algebraic path solver computes closures and least solutions.
   Proofs: proofs/LehmannProof.v, ClosureExtra.v, BlockSolver.v, NilpotentSolveProofs.v; the regenerated
   update expressions are tied to the models in GenLinearBridge.v. *)
From Coq Require Import List.
From GV.lib Require Import Semiring BigSum.
From GV.model Require Import Linear Blocks.
From GV.gen Require Import Gen_Linear.
From GV.proofs Require Import LehmannProof ClosureExtra BlockSolver GenLinearBridge.
Import ListNotations.

(* Lehmann/Kleene elimination (WeightedGraph._closure) computes, over every star semiring on which the
   pivots' stars are defined, a matrix K with K = I + A K and K = I + K A on the node set. *)
Theorem C15_lehmann_fixpoint : forall (S : StarSR) (nodes : list nat) (A : mat S),
  NoDup nodes -> defined S nodes A -> forall i k, In i nodes -> In k nodes ->
  mget (lehmann nodes A) i k = sadd (fid i k) (bsum nodes (fun j => smul (mget A i j) (mget (lehmann nodes A) j k))) /\
  mget (lehmann nodes A) i k = sadd (fid i k) (bsum nodes (fun j => smul (mget (lehmann nodes A) i j) (mget A j k))).
Proof. intros; split; [apply lehmann_fixpoint_l|apply lehmann_fixpoint_r]; assumption. Qed.
Print Assumptions C15_lehmann_fixpoint.

(* including the |N| = 1 shortcut *)
Theorem C15_closure_fixpoint : forall (S : StarSR) (nodes : list nat) (A : mat S), NoDup nodes ->
  (match nodes with [i] => sdef S (mget A i i) | _ => defined S nodes A end) ->
  forall i k, In i nodes -> In k nodes ->
  mget (closure nodes A) i k = sadd (fid i k) (bsum nodes (fun j => smul (mget A i j) (mget (closure nodes A) j k))).
Proof. intros; apply closure_fixpoint_l; assumption. Qed.
Print Assumptions C15_closure_fixpoint.

(* acyclic graphs: the closure is the sum of all powers, i.e. the sum over all paths (any semiring) *)
Theorem C15_acyclic_is_power_sum : forall (S : StarSR) (nodes : list nat) (A : mat S) (n : nat),
  NoDup nodes -> defined S nodes A ->
  (forall i k, In i nodes -> In k nodes -> fpow S nodes (mget A) n i k = s0) ->
  forall i k, In i nodes -> In k nodes ->
  mget (lehmann nodes A) i k = bsum (seq 0 n) (fun m => fpow S nodes (mget A) m i k).
Proof. intros; apply lehmann_acyclic_pathsum; assumption. Qed.
Print Assumptions C15_acyclic_is_power_sum.

(* Boolean semiring: entry (i, k) of the closure is true iff k is reachable from i *)
Theorem C15_bool_reachability : forall (nodes : list nat) (A : mat BoolStar) (i k : nat),
  NoDup nodes -> In i nodes -> In k nodes ->
  (mget (lehmann nodes A) i k = true <-> reachN nodes A i k).
Proof. intros; apply lehmann_bool_reach; assumption. Qed.
Print Assumptions C15_bool_reachability.

(* block solvers: for any block list that partitions the nodes with all edges going forward, and
   block closures satisfying the closure equations, solve_left returns a solution of x = xA + b and
   solve_right of x = Ax + b *)
Theorem C15_block_solvers : forall (S : StarSR) (allnodes : list nat) (blocks : list (list nat)) (A : mat S) (b : vec S),
  NoDup allnodes -> is_partition allnodes blocks = true -> forward_edges allnodes blocks A = true ->
  (forall i k, ~ In i allnodes \/ ~ In k allnodes -> mget A i k = s0) ->
  ((forall blk, In blk blocks -> forall i k, In i blk -> In k blk ->
      mget (block_closure blk A) i k = sadd (fid i k) (bsum blk (fun j => smul (mget (block_closure blk A) i j) (mget A j k)))) ->
   forall k, In k allnodes ->
     vget (solve_left allnodes blocks A b) k = sadd (vget b k) (bsum allnodes (fun i => smul (vget (solve_left allnodes blocks A b) i) (mget A i k)))) /\
  ((forall blk, In blk blocks -> forall i k, In i blk -> In k blk ->
      mget (block_closure blk A) i k = sadd (fid i k) (bsum blk (fun j => smul (mget A i j) (mget (block_closure blk A) j k)))) ->
   forall k, In k allnodes ->
     vget (solve_right allnodes blocks A b) k = sadd (vget b k) (bsum allnodes (fun i => smul (mget A k i) (vget (solve_right allnodes blocks A b) i)))).
Proof.
  intros S allnodes blocks A b Hnd Hp Hf Hz. split; intros Hb k Hk.
  - apply solve_left_fixpoint; assumption.
  - apply solve_right_fixpoint; assumption.
Qed.
Print Assumptions C15_block_solvers.

(* the checker applied to the implementation's block list accepts only the strongly connected
   components listed in an order compatible with the edges *)
Theorem C15_scc_checker_sound : forall (S : StarSR) (nodes : list nat) (bs : list (list nat)) (A : mat S),
  NoDup nodes -> scc_check nodes bs A = true ->
  (forall x, In x nodes <-> exists b, In b bs /\ In x b) /\ NoDup (concat bs) /\
  (forall i k p q, In i nodes -> In k nodes -> mget A i k <> s0 -> block_of i bs 0 = Some p -> block_of k bs 0 = Some q -> p <= q) /\
  (forall b i k, In b bs -> In i b -> In k b -> reachN b (adj_bool b A) i k).
Proof. intros; apply scc_check_sound; assumption. Qed.
Print Assumptions C15_scc_checker_sound.

(* The arithmetic of WeightedGraph._closure and of the block solvers, regenerated from linear.py on
   every run (factor order included), is the arithmetic of the models. *)
Theorem C15_code_elimination_is_model : forall (S : StarSR) (nodes : list nat) (j : nat) (old : mat S),
  elim_step nodes j old =
  tabulate nodes (fun i k => gen_elim_upd S (mget old i k) (mget old i j) (sstar S (mget old j j)) (mget old j k)).
Proof. intros; apply gen_elim_step_model. Qed.
Print Assumptions C15_code_elimination_is_model.

Theorem C15_code_solvers_are_model : forall (S : StarSR) (allnodes : list nat) (A : mat S) (b sol : vec S) (block : list nat),
  solve_left_block S allnodes A b sol block =
    (let B := block_closure block A in
     let enter := map (fun j => (j, sadd (vget b j) (bsum allnodes (fun i => gen_left_enter S (vget sol i) (mget A i j))))) block in
     sol ++ flat_map (fun e => map (fun k => (k, gen_left_complete S (snd e) (mget B (fst e) k))) block) enter) /\
  solve_right_block S allnodes A b sol block =
    (let B := block_closure block A in
     let enter := map (fun j => (j, sadd (vget b j) (bsum allnodes (fun k => gen_right_enter S (mget A j k) (vget sol k))))) block in
     sol ++ flat_map (fun e => map (fun i => (i, gen_right_complete S (mget B i (fst e)) (snd e))) block) enter).
Proof. intros; split; [apply gen_solve_left_block_model|apply gen_solve_right_block_model]. Qed.
Print Assumptions C15_code_solvers_are_model.

(* Least solutions on graphs without cycles: when the weight matrix is nilpotent on the node set (every product of n
   consecutive edge weights vanishes), each of the systems x = b + A x and x = b + x A has exactly ONE solution, the
   finite sum over all paths  sum_{m<n} A^m b  (resp. b A^m) -- so what the block solvers return (a solution, by
   C15_block_solvers) is the least solution and the path sum.  Every commutative star semiring. *)
From GV.proofs Require NilpotentSolveProofs.
Theorem C15_acyclic_solutions_are_path_sums : forall (S : StarSR) (nodes : list nat) (A : nat -> nat -> S) (n : nat) (b x : nat -> S),
  NoDup nodes -> NilpotentSolveProofs.nilp S nodes A n ->
  ((forall i, In i nodes -> x i = sadd (b i) (bsum nodes (fun k => smul (A i k) (x k)))) ->
   forall i, In i nodes -> x i = bsum (seq 0 n) (fun m => bsum nodes (fun k => smul (fpow S nodes A m i k) (b k)))) /\
  ((forall k, In k nodes -> x k = sadd (b k) (bsum nodes (fun i => smul (x i) (A i k)))) ->
   forall k, In k nodes -> x k = bsum (seq 0 n) (fun m => bsum nodes (fun i => smul (b i) (fpow S nodes A m i k)))).
Proof.
  intros S nodes A n b x Hnd Hn. split.
  - intros Hx i Hi. exact (NilpotentSolveProofs.right_solution_is_path_sum S nodes A n b x Hnd Hn Hx i Hi).
  - intros Hx k Hk. exact (NilpotentSolveProofs.left_solution_is_path_sum S nodes A n b x Hnd Hn Hx k Hk).
Qed.
Print Assumptions C15_acyclic_solutions_are_path_sums.
