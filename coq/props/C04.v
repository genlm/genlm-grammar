(* Property C04: grammar language models are the exact left-to-right factorisation.
   Proofs: proofs/NormProofs.v (chain rule over an abstract field), PrefixTrees.v (prefix-weight semantics),
   PrefixSumProofs.v (the chain rule for the reference semantics), RescaleProofs.v, PriorityProofs.v and
   PriorityRescaled.v. *)
From Coq Require Import List.
From GV.lib Require Import Semiring BigSum.
From GV.model Require Import Cfg MachSpec Prefix Norm.
From GV.gen Require Import Gen_Exprs.
From GV.proofs Require Import NormProofs PrefixTrees PriorityProofs PriorityRescaled.
Import ListNotations.

(* a next-token distribution obtained by normalising non-negative-or-not weights sums to one *)
Theorem C04_sums_to_one : forall (F : FR) (V : list nat) (eos : nat) (nw : list nat -> nat -> F) (ctx : list nat),
  zsum V eos nw ctx <> s0 -> bsum (V ++ [eos]) (p_next V eos nw ctx) = s1.
Proof. intros; apply p_next_sums_to_one; assumption. Qed.
Print Assumptions C04_sums_to_one.

(* Chain rule: if the unnormalised next-token weights are the prefix weights of context+token, eos gets
   the weight of the context as a complete string, and prefix weights satisfy the prefix-sum identity
   pw(c) = cw(c) + sum_t pw(c+t), then the product of the conditionals along xs followed by eos is
   weight(xs) / total -- for every string whose prefixes have non-zero prefix weight. *)
Theorem C04_chain_rule : forall (F : FR) (V : list nat) (eos : nat) (nw : list nat -> nat -> F) (pw cw : list nat -> F),
  (forall ctx t, In t V -> nw ctx t = pw (ctx ++ [t])) ->
  (forall ctx, nw ctx eos = cw ctx) ->
  (forall ctx, pw ctx = sadd (cw ctx) (bsum V (fun t => pw (ctx ++ [t])))) ->
  ~ In eos V ->
  forall xs ctx, (forall x, In x xs -> In x V) ->
    (forall k, k <= length xs -> pw (ctx ++ firstn k xs) <> s0) ->
    chain V eos nw ctx xs = fdiv F (cw (ctx ++ xs)) (pw ctx).
Proof. intros; eapply chain_rule; eassumption. Qed.
Print Assumptions C04_chain_rule.

(* The prefix weight to which the next-token weights are compared is the total weight of the derivation
   trees whose yield begins with the context (each tree once). *)
Theorem C04_prefix_weight_semantics : forall (S : SR) (G : grammar S) (h X : nat) (p : list nat),
  Wpre G h X p = bsum (filter (fun t => is_prefix p (tyield t)) (trees G h X)) tweight.
Proof. intros; apply Wpre_trees. Qed.
Print Assumptions C04_prefix_weight_semantics.

(* agenda order of the rescaled parser (regenerated ORDER_MAX / priority) *)
Theorem C04_priority_rescaled : span_first priority_rescaled order_max_rescaled /\ order_first priority_rescaled order_max_rescaled.
Proof. split; [exact rescaled_span_first|exact rescaled_order_first]. Qed.
Print Assumptions C04_priority_rescaled.

(* Rescaling (earley_rescaled.py keeps every chart column multiplied by a running coefficient): whatever
   non-zero coefficient c(ctx) the unnormalised next-token weights of a context carry, the normalised
   next-token distribution and every chain-rule probability are those of the unscaled weights. *)
From GV.proofs Require RescaleProofs.
Theorem C04_rescaling_invariant : forall (F : FR) (V : list nat) (eos : nat) (c : list nat -> F)
    (nw : list nat -> nat -> F),
  (forall ctx t, c ctx <> s0 -> zsum V eos nw ctx <> s0 ->
     p_next V eos (RescaleProofs.scaled F c nw) ctx t = p_next V eos nw ctx t) /\
  (forall xs ctx,
     (forall k, k <= length xs -> c (ctx ++ firstn k xs) <> s0 /\ zsum V eos nw (ctx ++ firstn k xs) <> s0) ->
     chain V eos (RescaleProofs.scaled F c nw) ctx xs = chain V eos nw ctx xs).
Proof.
  intros F V eos c nw. split.
  - intros ctx t Hc Hz. exact (RescaleProofs.p_next_rescale_invariant F V eos c nw ctx t Hc Hz).
  - intros xs ctx H. exact (RescaleProofs.chain_rescale_invariant F V eos c nw xs ctx H).
Qed.
Print Assumptions C04_rescaling_invariant.

(* The hypotheses of the chain rule hold for the reference semantics: with next-token weights = reference prefix
   weights of context+token and eos weight = the reference weight of the context, the product of the conditionals
   along xs followed by eos is weight(ctx xs) / prefix weight(ctx), for every grammar over every field and every
   height -- the prefix-sum identity is a theorem about the derivation sums (C03), not an assumption.  What remains
   tied by correspondence only is that the implementation's next-token weights ARE these reference prefix weights. *)
From GV.proofs Require PrefixSumProofs.
Theorem C04_reference_chain_rule : forall (F : FR) (G : grammar F) (V : list nat) (h s eos : nat),
  NoDup V -> ~ In eos V ->
  (forall r a, In r G -> In (T a) (rbody r) -> In a V) ->
  forall xs ctx, (forall x, In x xs -> In x V) ->
    (forall k, k <= length xs -> Wpre G h s (ctx ++ firstn k xs) <> s0) ->
    chain V eos (PrefixSumProofs.ref_nw F G h s eos) ctx xs = fdiv F (W G h s (ctx ++ xs)) (Wpre G h s ctx).
Proof. intros F G V h s eos HV He Ht xs ctx Hx Hk. exact (PrefixSumProofs.reference_chain_rule F G V h s eos HV He Ht xs ctx Hx Hk). Qed.
Print Assumptions C04_reference_chain_rule.

Example C04_reference_chain_rule_nonvacuous :
  chain [0; 1] 2 (PrefixSumProofs.ref_nw QcFR PrefixSumProofs.ps_G 3 0 2) [] [1; 0]
  = fdiv QcFR (W PrefixSumProofs.ps_G 3 0 ([] ++ [1; 0])) (Wpre PrefixSumProofs.ps_G 3 0 []).
Proof. exact PrefixSumProofs.reference_chain_instance_thm. Qed.
Print Assumptions C04_reference_chain_rule_nonvacuous.
