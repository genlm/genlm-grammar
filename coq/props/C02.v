(* Property C02: every parser returns the derivation-sum weight of a string.
   Proofs: reference = tree sum in proofs/CfgTrees.v, tabulation in CfgChart.v, CKY and invariance in
   CkyProofs.v, agenda priorities in PriorityProofs.v and PriorityRescaled.v, the link to the grammar equations
   in StableSolves.v. *)
From Coq Require Import List BinInt.
From GV.lib Require Import Semiring BigSum.
From GV.model Require Import Cfg.
From GV.gen Require Import Gen_Exprs.
From GV.proofs Require Import CfgTrees CfgChart PriorityProofs PriorityRescaled.
Import ListNotations.

(* The reference value W G h X xs is the sum, over ALL derivation trees of height <= h rooted
   at X with yield xs, of the product of the rule weights (any commutative semiring; duplicate
   rules give distinct trees); the enumeration is sound, complete and duplicate-free. *)
Theorem C02_reference_is_tree_sum : forall (S : SR) (G : grammar S) (h X : nat) (xs : list nat),
  W G h X xs = bsum (filter (yields xs) (trees G h X)) tweight /\
  (forall t, In t (trees G h X) <-> (twf S G (N X) t /\ theight t <= h)) /\
  NoDup (trees G h X).
Proof.
  intros S G h X xs. split; [apply W_trees|]. split; [|apply trees_NoDup].
  intros t; split; [apply trees_sound|intros [Hw Hh]; apply trees_complete; assumption].
Qed.
Print Assumptions C02_reference_is_tree_sum.

(* The executable tabulation used by the correspondence runs computes W, and a value it
   returns is the weight of the string at every sufficiently large height (a finite sum). *)
Theorem C02_executable_model_is_reference : forall (S : SR) (G : grammar S) (xs : list nat),
  (forall n X i j, i <= j -> j <= length xs -> cget (citer G xs n []) (X, i, j) = W G n X (sub xs i j)) /\
  (forall fuel X v, lang G fuel X xs = Some v -> stable S G X xs v).
Proof. intros S G xs; split; [intros; apply citer_W; assumption|intros; eapply lang_stable; eassumption]. Qed.
Print Assumptions C02_executable_model_is_reference.

(* Agenda order of parse/earley.py (regenerated ORDER_MAX and priority): a completed item with a
   strictly shorter span, or the same span and a smaller order, is popped strictly earlier. *)
Theorem C02_priority_earley : span_first priority_earley order_max_earley /\ order_first priority_earley order_max_earley.
Proof. split; [exact earley_span_first|exact earley_order_first]. Qed.
Print Assumptions C02_priority_earley.

Theorem C02_priority_rescaled : span_first priority_rescaled order_max_rescaled /\ order_first priority_rescaled order_max_rescaled.
Proof. split; [exact rescaled_span_first|exact rescaled_order_first]. Qed.
Print Assumptions C02_priority_rescaled.

(* non-vacuity: the hypotheses of span_first are met by ordinary columns *)
Example C02_priority_nonvacuous : (0 <= 0 <= 2 /\ 0 <= 2 <= 2 /\ 3 < 4 /\ 4 <= 5)%Z /\
  (priority_earley 5 4 (order_max_earley 2) 2 > priority_earley 5 3 (order_max_earley 2) 0)%Z.
Proof. vm_compute. repeat split; discriminate. Qed.
Print Assumptions C02_priority_nonvacuous.

(* CKY on a grammar in Chomsky normal form computes the derivation sum (cfg(xs) evaluates
   cnf._parse_chart; IncrementalCKY fills the same chart column by column). *)
From GV.model Require Import Cky Transform.
From GV.proofs Require Import CkyProofs.
From Coq Require Import Permutation.
Theorem C02_cky_is_derivation_sum : forall (S : SR) (G : grammar S) (s : nat) (xs : list nat) (h : nat),
  in_cnf s G = true -> length xs < h -> W G h s xs = cky G s xs.
Proof. intros; apply cky_W; assumption. Qed.
Print Assumptions C02_cky_is_derivation_sum.

(* independence of rule order and of nonterminal names *)
Theorem C02_perm_rename_invariant : forall (S : SR) (G G' : grammar S) (f : nat -> nat) h X xs,
  Permutation G G' -> (forall p q, f p = f q -> p = q) ->
  W G h X xs = W G' h X xs /\ W (rename_g f G) h (f X) xs = W G h X xs.
Proof. intros S G G' f h X xs HP Hf; split; [apply W_perm; assumption|apply W_rename; assumption]. Qed.
Print Assumptions C02_perm_rename_invariant.

Example C02_cnf_nonvacuous :
  in_cnf 0 [((mkq 1 2 : QcSR), 0, []); (mkq 1 3, 0, [N 1; N 1]); (mkq 1 5, 1, [T 0])] = true /\
  cky [((mkq 1 2 : QcSR), 0, []); (mkq 1 3, 0, [N 1; N 1]); (mkq 1 5, 1, [T 0])] 0 [0; 0] = mkq 1 75.
Proof. split; vm_compute; reflexivity. Qed.
Print Assumptions C02_cnf_nonvacuous.

(* Link between the reference semantics and the grammar equations used by the equation-level theorems
   (C03 derivative, C06 nullary/unary removal, C09 product, C19 substitution): whenever every string
   weight is a finite (stabilising) derivation sum, the string-weight function solves the equations; in
   particular for every grammar with a rank function (acyclic dependency graph), and for every value
   returned by the executable tabulation. *)
From GV.proofs Require FoldProofs StableSolves.
Theorem C02_stable_weights_solve_the_equations : forall (S : SR) (G : grammar S) (f : nat -> list nat -> S),
  (forall X xs, stable S G X xs (f X xs)) -> FoldProofs.solves S G f.
Proof. intros; apply StableSolves.stable_solves; assumption. Qed.
Print Assumptions C02_stable_weights_solve_the_equations.

Theorem C02_ranked_grammars : forall (S : SR) (r : nat -> nat) (G : grammar S),
  StableSolves.ranked S r G ->
  (forall X xs, stable S G X xs (W G (Datatypes.S (r X)) X xs)) /\
  FoldProofs.solves S G (fun X xs => W G (Datatypes.S (r X)) X xs).
Proof.
  intros S r G Hr. split.
  - intros X xs. exact (StableSolves.ranked_stable S r G Hr X xs).
  - exact (StableSolves.ranked_solves S r G Hr).
Qed.
Print Assumptions C02_ranked_grammars.
