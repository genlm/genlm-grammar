(* Property C08: total weights are the least solution of the grammar equations.
   Proofs: proofs/CfgTrees.v (the Kleene iterate as a sum over trees), AgendaProofs.v (semi-naive step, agenda
   invariant), PrefixChart.v, ExpectProofs.v, TotalStringsProofs.v, ExpectTotalProofs.v. *)
From Coq Require Import List Arith.
From GV.lib Require Import Semiring BigSum.
From GV.model Require Import Cfg Agenda Agenda2 Prefix Expect.
From GV.gen Require Import Gen_Exprs.
From GV.proofs Require Import CfgTrees AgendaProofs PrefixChart ExpectProofs.
Import ListNotations.

(* Kleene iteration from zero (naive_bottom_up / _bottom_up_step) is the tree sum: after h steps
   the value of X is the total weight of ALL derivation trees of X of height <= h
   (any commutative semiring), and that enumeration is complete and duplicate-free. *)
Theorem C08_iterate_is_height_sum : forall (S : SR) (G : grammar S) (h X : nat),
  bu_iter G h X = bsum (trees G h X) tweight /\
  (forall t, In t (trees G h X) <-> (twf S G (N X) t /\ theight t <= h)) /\ NoDup (trees G h X).
Proof.
  intros S G h X. split; [apply bu_iter_trees|]. split; [|apply trees_NoDup].
  intros t; split; [apply trees_sound|intros [Hw Hh]; apply trees_complete; assumption].
Qed.
Print Assumptions C08_iterate_is_height_sum.

(* The executable tabulation used by the correspondence run computes exactly these iterates. *)
Theorem C08_executable_totals : forall (S : SR) (G : grammar S) (n X : nat),
  tget (snd (piter G [] n ([], [], []))) X = bu_iter G n X.
Proof. intros S G n X. exact (proj2 (proj2 (piter_correct S G [] n)) X). Qed.
Print Assumptions C08_executable_totals.

(* One agenda pop pushes exactly the change of every rule's contribution (regenerated factor
   selection agenda_sel and agenda_new): semi-naive evaluation loses and duplicates nothing. *)
Theorem C08_seminaive_identity : forall (S : SR) (old : sym -> S) (u : sym) (v : S) (body : list sym),
  let new := agenda_new S (old u) v in
  sprod (map (upd old u new) body)
    = sadd (sprod (map old body)) (bsum (occ u body) (fun k => factor (agenda_sel S) old u new v body k)).
Proof. intros S old u v body. exact (seminaive_identity S old u v body). Qed.
Print Assumptions C08_seminaive_identity.

(* Agenda invariant for EVERY pop order: in every reachable state, for every nonterminal,
   old + pending = sum over its rules of weight * product of old over the body; hence when
   nothing is pending, old solves the grammar equations (terminals have value one). *)
Theorem C08_agenda_invariant : forall (S : SR) (G : grammar S) (terminals : list nat) (st : astate S),
  NoDup terminals -> areach (agenda_sel S) (agenda_new S) G terminals st -> ainv G terminals st.
Proof. intros; apply ainv_reachable; assumption. Qed.
Print Assumptions C08_agenda_invariant.

Theorem C08_agenda_fixpoint : forall (S : SR) (G : grammar S) (terminals : list nat) old ch,
  NoDup terminals -> areach (agenda_sel S) (agenda_new S) G terminals (old, ch) -> (forall x, pend ch x = s0) ->
  (forall a, old (T a) = if existsb (Nat.eqb a) terminals then s1 else s0) /\
  (forall X, old (N X) = rhs_val G old X).
Proof. intros; eapply agenda_fixpoint; eassumption. Qed.
Print Assumptions C08_agenda_fixpoint.

(* The expectation semiring <p, r> (Expectation in semiring.py) is a commutative semiring over any
   commutative semiring, so every theorem above applies to it; and under the lifting used by
   CFG.expected_length (rule weight w becomes <w, w * number of terminals in the body>) every derivation
   tree t gets the weight <weight(t), weight(t) * |yield(t)|>: the second component of the total weight
   is the weight-weighted total string length. *)
Theorem C08_expectation_semiring : forall (S : SR),
  Ring_theory.semi_ring_theory (@e0 S) (@e1 S) (@eadd S) (@emul S) (@eq (S * S)).
Proof. exact exp_srt. Qed.
Print Assumptions C08_expectation_semiring.

Theorem C08_expectation_tree : forall (S : SR) (G : grammar S) (t : tree S) (X : nat), twf S G (N X) t ->
  tweight (tlift S t) = (tweight t, smul (tweight t) (nat_s (length (tyield t)))).
Proof. intros S G t X H. exact (expectation_tree_weight S G t X H). Qed.
Print Assumptions C08_expectation_tree.

(* The start symbol's value is the sum of the string weights over the whole language, at every height: the h-th
   Kleene iterate of X equals the sum, over ALL strings (a grammar with bodies of at most K symbols yields strings of
   length at most K^h at height h), of the height-h derivation sum of the string -- every derivation tree is counted
   under exactly one string (any commutative semiring; proofs/TotalStringsProofs.v). *)
From GV.proofs Require ProductProofs TotalStringsProofs.
Theorem C08_total_is_sum_of_strings : forall (S : SR) (G : grammar S) (V : list nat) (K : nat), NoDup V ->
  (forall r a, In r G -> In (T a) (rbody r) -> In a V) ->
  (forall r, In r G -> length (rbody r) <= K) ->
  forall h X, bu_iter G h X = bsum (ProductProofs.words_le V (Nat.pow K h)) (fun xs => W G h X xs).
Proof. intros S G V K HV Ht Hk h X. exact (TotalStringsProofs.total_is_sum_of_all_strings S G V K HV Ht Hk h X). Qed.
Print Assumptions C08_total_is_sum_of_strings.

Example C08_total_is_sum_of_strings_nonvacuous :
  bu_iter TotalStringsProofs.ex_G 3 0 = bsum (ProductProofs.words_le [0; 1] (Nat.pow 2 3)) (fun xs => W TotalStringsProofs.ex_G 3 0 xs).
Proof. exact TotalStringsProofs.total_strings_instance_thm. Qed.
Print Assumptions C08_total_is_sum_of_strings_nonvacuous.

(* Expectation semiring, Kleene-iterate level: the naive evaluation of the grammar lifted to pairs <p, r> (every rule
   <w, w * #terminals of its body>) yields, at every height, the pair <total weight, weight-weighted total yield length>
   of the original grammar -- as a sum over derivation trees and as a sum over all strings of  weight(x) * |x|. *)
From GV.proofs Require ExpectTotalProofs.
Theorem C08_expectation_iterate : forall (S : SR) (G : grammar S) (h X : nat),
  bu_iter (ExpectTotalProofs.glift S G) h X
  = (bu_iter G h X, bsum (trees G h X) (fun t => smul (tweight t) (nat_s (length (tyield t))))) /\
  (forall (V : list nat) (L : nat), NoDup V -> TotalStringsProofs.yields_within S G h X V L ->
     bu_iter (ExpectTotalProofs.glift S G) h X
     = (bsum (ProductProofs.words_le V L) (fun xs => W G h X xs),
        bsum (ProductProofs.words_le V L) (fun xs => smul (W G h X xs) (nat_s (length xs))))).
Proof.
  intros S G h X. split.
  - exact (ExpectTotalProofs.expectation_iterate S G h X).
  - intros V L HV Hy. exact (ExpectTotalProofs.expectation_iterate_strings S G V h X L HV Hy).
Qed.
Print Assumptions C08_expectation_iterate.
