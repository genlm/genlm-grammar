(* Property C18: regex automata accept exactly the regex language and are normalised.
   The step regex -> DFA is interegular's and is not modelled; the post-processing of the DFA
   (lark_interface.interegular_to_wfsa) is modelled in model/Regex.v and run on the implementation's
   own DFA in the correspondence run.  Proofs: proofs/RegexLangProofs.v, RegexLiveProofs.v, SubProbProofs.v. *)
From Coq Require Import List QArith Qcanon.
From GV.lib Require Import Semiring BigSum.
From GV.model Require Import Regex.
From GV.proofs Require Import RegexLangProofs.
Import ListNotations.

(* local normalisation: for EVERY DFA and character set, every state with a positive fan-out has
   outgoing arc weights plus final weight summing to exactly one *)
Theorem C18_locally_normalised : forall (charset : list nat) (D : dfa) (e : nat * list (nat * nat)),
  fanout charset D (fst e) (snd e) <> O -> re_mass charset D e = 1%Qc.
Proof. intros; apply regex_locally_normalised; assumption. Qed.
Print Assumptions C18_locally_normalised.

(* every arc of the result is a single-character move of the DFA into a live state, with weight 1/K > 0;
   negated classes and the dot expand to the character set minus the DFA's explicit symbols *)
Theorem C18_arcs_are_dfa_moves : forall charset D i x j w, In (i, x, j, w) (re_arcs charset D) ->
  exists outs, In (i, outs) (d_map D) /\ In (x, j) (moves charset D outs) /\ w = invK (fanout charset D i outs) /\
               fanout charset D i outs <> O /\ memn j (d_live D) = true /\
               exists c, In (c, j) outs /\ In [x] (expand charset D c).
Proof.
  intros charset D i x j w H. destruct (regex_arcs_single_char charset D i x j w H) as [outs [H1 [H2 [H3 H4]]]].
  exists outs. repeat split; try assumption; destruct (regex_moves_live charset D outs x j H2) as [H5 H6]; assumption.
Qed.
Print Assumptions C18_arcs_are_dfa_moves.

Theorem C18_weights_positive : forall k, k <> O -> (0 < invK k)%Qc.
Proof. intros; apply regex_weights_positive; assumption. Qed.
Print Assumptions C18_weights_positive.

(* With the live set computed relative to the character set (model/RegexLive.v, mirroring the code),
   every state an arc leads to has a positive fan-out and is therefore normalised: no dead ends. *)
From GV.model Require Import RegexLive.
From GV.proofs Require Import RegexLiveProofs.
Theorem C18_no_dead_ends : forall charset D i x j w outs_j,
  In (i, x, j, w) (re_arcs charset (with_live charset D)) -> In (j, outs_j) (d_map D) ->
  (forall e1 e2, In e1 (d_map D) -> In e2 (d_map D) -> fst e1 = fst e2 -> e1 = e2) ->
  fanout charset (with_live charset D) j outs_j <> O /\ re_mass charset (with_live charset D) (j, outs_j) = 1%Qc.
Proof. intros; split; [eapply with_live_targets_positive|eapply with_live_targets_normalised]; eassumption. Qed.
Print Assumptions C18_no_dead_ends.

(* The language of the result: with the initial weight 1 on the DFA's initial state (re_wfsa), the weight of a string is
   never negative and is non-zero exactly when the DFA accepts the string by single-character moves of the character
   set into live states -- for EVERY DFA and character set (no uniqueness of map entries assumed). *)
From GV.model Require Wfsa.
Theorem C18_language : forall (charset : list nat) (D : dfa) (xs : list nat),
  (0 <= Wfsa.pathsum (RegexLangProofs.re_wfsa charset D) xs)%Qc /\
  (Wfsa.pathsum (RegexLangProofs.re_wfsa charset D) xs <> 0%Qc <-> RegexLangProofs.dfa_run charset D (d_init D) xs) /\
  ((0 < Wfsa.pathsum (RegexLangProofs.re_wfsa charset D) xs)%Qc <-> RegexLangProofs.dfa_run charset D (d_init D) xs) /\
  Wfsa.eps_free (RegexLangProofs.re_wfsa charset D).
Proof.
  intros charset D xs.
  split; [exact (RegexLangProofs.re_pathsum_nonneg charset D xs)|].
  split; [exact (RegexLangProofs.re_language charset D xs)|].
  split; [exact (RegexLangProofs.re_language_pos charset D xs)|exact (RegexLangProofs.re_wfsa_eps_free charset D)].
Qed.
Print Assumptions C18_language.

Example C18_language_nonvacuous :
  Wfsa.pathsum (RegexLangProofs.re_wfsa [7; 8]%nat RegexLangProofs.exD) [7; 7]%nat = Q2Qc (1 # 4) /\
  Wfsa.pathsum (RegexLangProofs.re_wfsa [7; 8]%nat RegexLangProofs.exD) [8]%nat = 0%Qc /\
  RegexLangProofs.dfa_run [7; 8]%nat RegexLangProofs.exD 0%nat [7; 7]%nat.
Proof.
  split; [exact RegexLangProofs.exD_accepts_77|split; [exact RegexLangProofs.exD_rejects_8|exact RegexLangProofs.exD_run_77]].
Qed.
Print Assumptions C18_language_nonvacuous.

(* Sub-probability: a weighted automaton over the rationals with non-negative weights whose every state has outgoing
   arc weights plus final weight at most one, and initial mass at most one, gives the set of ALL strings of length
   <= n over any alphabet V total weight at most one, for every n (proofs/SubProbProofs.v); the automaton built from a
   DFA whose transition map has one entry per state (a Python dict) is such an automaton. *)
From GV.proofs Require ProductProofs SubProbProofs.
Theorem C18_subprobability : forall (V charset : list nat) (D : dfa), NoDup V -> NoDup (map fst (d_map D)) ->
  forall n, (bsum (S:=QcSR) (ProductProofs.words_le V n) (fun xs => Wfsa.pathsum (RegexLangProofs.re_wfsa charset D) xs) <= 1)%Qc.
Proof. intros V charset D HV HD n. exact (SubProbProofs.re_subprobability V charset D HV HD n). Qed.
Print Assumptions C18_subprobability.

Theorem C18_substochastic_automata : forall (V : list nat) (m : Wfsa.wfsa QcSR), NoDup V -> SubProbProofs.nonneg_wfsa m ->
  (forall q, SubProbProofs.state_mass m q <= 1)%Qc -> (bsum (S:=QcSR) (Wfsa.winit m) (fun e => snd e) <= 1)%Qc ->
  forall n, (bsum (S:=QcSR) (ProductProofs.words_le V n) (fun xs => Wfsa.pathsum m xs) <= 1)%Qc.
Proof. intros V m HV Hn Hm Hi n. exact (SubProbProofs.substochastic_language V m HV Hn Hm Hi n). Qed.
Print Assumptions C18_substochastic_automata.

Example C18_subprobability_nonvacuous :
  bsum (S:=QcSR) (ProductProofs.words_le [7; 8]%nat 3) (fun xs => Wfsa.pathsum (RegexLangProofs.re_wfsa [7; 8]%nat RegexLangProofs.exD) xs) = Q2Qc (7 # 8) /\
  forall n, (bsum (S:=QcSR) (ProductProofs.words_le [7; 8]%nat n) (fun xs => Wfsa.pathsum (RegexLangProofs.re_wfsa [7; 8]%nat RegexLangProofs.exD) xs) <= 1)%Qc.
Proof. split; [exact SubProbProofs.exD_total_3|exact SubProbProofs.exD_subprobability]. Qed.
Print Assumptions C18_subprobability_nonvacuous.
