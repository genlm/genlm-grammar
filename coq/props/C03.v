(* Property C03: prefix weight = total weight of all strings with that prefix.
   Proofs: proofs/PrefixMachine.v, PrefixTrees.v, PrefixChart.v; the sums over strings in PrefixStringsProofs.v
   and PrefixSumProofs.v; the derivative in DerivProofs.v. *)
From Coq Require Import List Arith BinNat.
From GV.lib Require Import Semiring BigSum.
From GV.model Require Import Cfg Agenda MachSpec Fst Prefix.
From GV.gen Require Import Gen_Machines.
From GV.proofs Require Import CfgTrees PrefixMachine PrefixTrees PrefixChart.
Import ListNotations.

(* The prefix transducer regenerated from cfg.prefix_transducer relates a string s to p with total
   path weight one exactly when p is a prefix of s, and zero otherwise: every (string, prefix) pair
   has exactly one accepting path (any semiring, any alphabet, any strings over it). *)
Theorem C03_prefix_transducer : forall (S : SR) (V : list nat) (s p : list nat) (fuel : nat),
  NoDup V -> (forall a, In a s -> In a V) -> length s <= fuel ->
  trel (prefix_transducer V) fuel s p = if is_prefix p s then @s1 S else @s0 S.
Proof. intros; apply prefix_transducer_spec; assumption. Qed.
Print Assumptions C03_prefix_transducer.

(* Reference prefix weight: Wpre G h X p is the total weight of the derivation trees of height <= h
   rooted at X whose yield begins with p, each tree counted once; the empty prefix gives the total. *)
Theorem C03_prefix_weight_is_tree_sum : forall (S : SR) (G : grammar S) (h X : nat) (p : list nat),
  Wpre G h X p = bsum (filter (fun t => is_prefix p (tyield t)) (trees G h X)) tweight /\
  Wpre G h X [] = bu_iter G h X /\
  NoDup (trees G h X).
Proof. intros S G h X p. split; [apply Wpre_trees|split; [apply Wpre_nil|apply trees_NoDup]]. Qed.
Print Assumptions C03_prefix_weight_is_tree_sum.

(* the executable tabulation used by the correspondence run computes Wpre, and a value it returns
   is the prefix weight at every sufficiently large height *)
Theorem C03_executable_prefix_model : forall (S : SR) (G : grammar S) (xs : list nat),
  (forall n X i, i <= length xs -> pget (snd (fst (piter G xs n ([], [], [])))) (X, i) = Wpre G n X (sub xs i (length xs))) /\
  (forall fuel X v, prefix_lang G fuel X xs = Some v -> exists H, forall h, H <= h -> Wpre G h X xs = v).
Proof.
  intros S G xs. split.
  - intros n X i Hi. exact (proj1 (proj2 (piter_correct S G xs n)) X i Hi).
  - intros fuel X v H. eapply prefix_lang_stable; eassumption.
Qed.
Print Assumptions C03_executable_prefix_model.

Example C03_prefix_nonvacuous :
  trel (prefix_transducer (S:=NSR) [0; 1]) 3 [0; 1; 1] [0; 1] = 1%N /\
  trel (prefix_transducer (S:=NSR) [0; 1]) 3 [0; 1; 1] [1] = 0%N.
Proof. vm_compute. split; reflexivity. Qed.
Print Assumptions C03_prefix_nonvacuous.

(* CFG.derivative(a) (model/Deriv.v: all rules kept; for every rule and every body position k whose
   preceding symbols are nullable, a rule for the slash symbol, weighted by the null weights U of the
   skipped prefix).  If f solves G and U X = f X [], then the valuation that gives the slash symbol X/a
   the weight f X (a :: xs) solves the derivative grammar: its start symbol S/a gives xs exactly the
   weight G gives a :: xs.  Iterating: two derivatives give f s (a :: b :: xs).  Every semiring. *)
From GV.model Require Import Deriv.
From GV.proofs Require FoldProofs DerivProofs.
Theorem C03_derivative : forall (S : SR) (sl : nat -> nat) (a : nat) (G : grammar S) (f : nat -> list nat -> S) (U : nat -> S),
  (forall X Y, sl X = sl Y -> X = Y) ->
  (forall r X, In r G -> rhead r <> sl X) -> (forall r X, In r G -> ~ In (N (sl X)) (rbody r)) ->
  FoldProofs.solves S G f -> (forall X, U X = f X []) ->
  FoldProofs.solves S (derivative U sl a G) (deriv_val sl a G f) /\
  (forall s xs, deriv_val sl a G f (sl s) xs = f s (a :: xs)).
Proof.
  intros S sl a G f U Hinj Hh Hb Hf HU. split.
  - exact (DerivProofs.derivative_solves S sl a G f Hinj Hh Hb Hf U HU).
  - intros s xs. exact (DerivProofs.derivative_start S sl a G f Hinj Hh Hf s xs).
Qed.
Print Assumptions C03_derivative.

Theorem C03_derivative_twice : forall (S : SR) (sl sl2 : nat -> nat) (a b : nat) (G : grammar S)
    (f : nat -> list nat -> S) (U U2 : nat -> S),
  (forall X Y, sl X = sl Y -> X = Y) -> (forall X Y, sl2 X = sl2 Y -> X = Y) ->
  (forall r X, In r G -> rhead r <> sl X) -> (forall r X, In r G -> ~ In (N (sl X)) (rbody r)) ->
  (forall r X, In r G -> rhead r <> sl2 X) -> (forall r X, In r G -> ~ In (N (sl2 X)) (rbody r)) ->
  (forall X Y, sl2 X <> sl Y) ->
  FoldProofs.solves S G f -> (forall X, U X = f X []) -> (forall X, U2 X = deriv_val sl a G f X []) ->
  let D := derivative U sl a G in
  let f2 := deriv_val sl2 b D (deriv_val sl a G f) in
  FoldProofs.solves S (derivative U2 sl2 b D) f2 /\ (forall s xs, f2 (sl2 (sl s)) xs = f s (a :: b :: xs)).
Proof. intros; apply DerivProofs.derivative2_solves; assumption. Qed.
Print Assumptions C03_derivative_twice.

(* String level: the prefix weight of p is the sum of the weights of all STRINGS that begin with p, each string once
   (at every height; a grammar with bodies of at most K symbols yields strings of length at most K^h at height h), and
   prefix weights satisfy the prefix-sum identity  pre(p) = weight(p) + sum over the next token t of pre(p t)
   -- any commutative semiring (proofs/PrefixStringsProofs.v, PrefixSumProofs.v). *)
From GV.proofs Require ProductProofs PrefixStringsProofs PrefixSumProofs.
Theorem C03_prefix_weight_is_sum_of_strings : forall (S : SR) (G : grammar S) (V : list nat) (K : nat), NoDup V ->
  (forall r a, In r G -> In (T a) (rbody r) -> In a V) ->
  (forall r, In r G -> length (rbody r) <= K) ->
  forall h X p,
    Wpre G h X p = bsum (filter (is_prefix p) (ProductProofs.words_le V (Nat.pow K h))) (fun xs => W G h X xs) /\
    Wpre G h X p = sadd (W G h X p) (bsum V (fun t => Wpre G h X (p ++ [t]))).
Proof.
  intros S G V K HV Ht Hk h X p. split.
  - exact (PrefixStringsProofs.prefix_weight_is_sum_of_all_strings S G V K HV Ht Hk h X p).
  - exact (PrefixSumProofs.prefix_sum_identity S G V HV Ht h X p).
Qed.
Print Assumptions C03_prefix_weight_is_sum_of_strings.

Example C03_prefix_weight_is_sum_of_strings_nonvacuous :
  Wpre TotalStringsProofs.ex_G 3 0 [1]
  = bsum (filter (is_prefix [1]) (ProductProofs.words_le [0; 1] (Nat.pow 2 3))) (fun xs => W TotalStringsProofs.ex_G 3 0 xs) /\
  Wpre TotalStringsProofs.ex_G 3 0 [1] = 16%N.
Proof. split; [exact PrefixStringsProofs.prefix_strings_instance_thm|exact (proj1 PrefixStringsProofs.prefix_strings_instance)]. Qed.
Print Assumptions C03_prefix_weight_is_sum_of_strings_nonvacuous.
