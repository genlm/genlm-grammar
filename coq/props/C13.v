(* Property C13: determinisation, minimisation, pushing and trimming preserve the language.
   Proofs: proofs/DetProofs.v, TrimWProofs.v, TrimSearchProofs.v, DetCheckerProofs.v.  The outputs of the
   implementation are in addition
   read back and checked by the checkers of model/Det.v (deterministic, out_mass, is_trim) and
   re-evaluated by the reference semantics in the correspondence run. *)
From Coq Require Import List.
From GV.lib Require Import Semiring.
From GV.model Require Import Wfsa Det TrimW.
From GV.proofs Require Import WfsaProofs DetProofs TrimWProofs.
Import ListNotations.

(* Weight pushing with the backward weights V (any field): every kept state's outgoing arc weights
   plus its final weight sum to one, and every string keeps its weight. *)
Theorem C13_push_stochastic : forall (F : FR) (V : nat -> F) (m : wfsa F) (i : nat),
  backward_eq V m -> V i <> s0 -> out_mass (push_with V m) i = s1.
Proof. intros; apply push_stochastic; assumption. Qed.
Print Assumptions C13_push_stochastic.

Theorem C13_push_language : forall (F : FR) (V : nat -> F) (m : wfsa F),
  backward_eq V m -> (forall q, V q = s0 -> forall xs, pw m q xs = s0) ->
  forall xs, weight (push_with V m) xs = weight m xs.
Proof. intros; apply push_weight; assumption. Qed.
Print Assumptions C13_push_language.

(* The weighted subset construction: the residual invariant.  Reading xs from the initial residual,
   the accumulated arc weight c and the reached residual Q satisfy  forward(xs) = c * Q, so the
   determinised automaton (path weight c, final weight Q.stop) gives xs the weight of the input
   automaton -- whenever every normaliser met on the way is non-zero. *)
Theorem C13_determinize_invariant : forall (F : FR) (m : wfsa F) (xs : list nat),
  det_defined m (winit m) xs ->
  (forall q, wget (fwd m xs) q = smul (fst (det_run m s1 (winit m) xs)) (wget (snd (det_run m s1 (winit m) xs)) q)) /\
  det_value m xs = weight m xs.
Proof.
  intros F m xs Hd. split; [|apply det_value_weight; assumption].
  intros q. pose proof (det_run_forward F m xs s1 (winit m) q Hd) as H.
  unfold fwd. rewrite <- H. symmetry. apply (Ring_theory.SRmul_1_l (sth F)).
Qed.
Print Assumptions C13_determinize_invariant.

(* Trimming (WFSA._trim restricted to a set of states; any semiring, any automaton incl. epsilon-free cyclic
   ones): keeping a successor-closed set that contains the initial states changes no weight; dropping
   states from which nothing is accepted changes no weight; hence trim (accessible, then co-accessible)
   preserves the weight of every string. *)
Theorem C13_trim_accessible : forall (S : SR) (m : wfsa S) (K : list nat), closed_succ S m K ->
  (forall e, In e (winit m) -> inb (fst e) K = true) ->
  forall xs, weight (wtrim K m) xs = weight m xs.
Proof. intros; apply trim_accessible_weight; assumption. Qed.
Print Assumptions C13_trim_accessible.

Theorem C13_trim_dead : forall (S : SR) (m : wfsa S) (K : list nat), (forall q, inb q K = false -> dead S m q) ->
  forall xs, weight (wtrim K m) xs = weight m xs.
Proof. intros; apply trim_dead_weight; assumption. Qed.
Print Assumptions C13_trim_dead.

Theorem C13_trim_language : forall (S : SR) (m : wfsa S) (K1 K2 : list nat), closed_succ S m K1 ->
  (forall e, In e (winit m) -> inb (fst e) K1 = true) ->
  (forall q, inb q K2 = false -> dead S (wtrim K1 m) q) ->
  forall xs, weight (wtrim K2 (wtrim K1 m)) xs = weight m xs.
Proof. intros; apply trim_both_weight; assumption. Qed.
Print Assumptions C13_trim_language.

(* trim as the code computes it: the model of the two graph searches (model/TrimSearch.v: accessible = reached from the
   initial states along arcs, epsilon arcs included; co-accessible = accessible in the reversed automaton; the kept set
   is their intersection) computes exactly the states on a path from an initial state, resp. to a final state; the
   resulting automaton gives EVERY string the weight the input gives it (any semiring, cyclic automata included, no
   hypothesis), and every kept state lies on a path from an initial to a final state.  The state set of the
   implementation's trim is compared with [active] in the correspondence run. *)
From GV.model Require TrimSearch.
From GV.proofs Require TrimSearchProofs.
Theorem C13_trim_search : forall (S : SR) (m : wfsa S),
  (forall xs, weight (TrimSearch.trim_model m) xs = weight m xs) /\
  (forall q, In q (TrimSearch.accessible m) <-> exists e, In e (winit m) /\ TrimSearchProofs.path_to m (fst e) q) /\
  (forall q, In q (TrimSearch.coaccessible m) <-> exists e, In e (wfinal m) /\ TrimSearchProofs.path_to m q (fst e)) /\
  (forall q, In q (TrimSearch.active m) ->
     (exists e, In e (winit m) /\ TrimSearchProofs.path_to m (fst e) q) /\ (exists e, In e (wfinal m) /\ TrimSearchProofs.path_to m q (fst e))) /\
  (forall q, inb q (TrimSearch.coaccessible m) = false -> dead S m q).
Proof.
  intros S m.
  split; [intros xs; exact (TrimSearchProofs.trim_model_weight S m xs)|].
  split; [intros q; exact (TrimSearchProofs.accessible_spec S m q)|].
  split; [intros q; exact (TrimSearchProofs.coaccessible_spec S m q)|].
  split; [intros q Hq; exact (TrimSearchProofs.trim_model_states_useful S m q Hq)|].
  intros q Hq; exact (TrimSearchProofs.not_coaccessible_dead S m q Hq).
Qed.
Print Assumptions C13_trim_search.

Example C13_trim_search_nonvacuous :
  TrimSearch.active TrimSearchProofs.ts_ex = [2; 1; 0] /\ length (warcs TrimSearchProofs.ts_ex) = 4 /\
  length (warcs (TrimSearch.trim_model TrimSearchProofs.ts_ex)) = 2.
Proof. exact (conj TrimSearchProofs.ts_ex_active (conj eq_refl TrimSearchProofs.ts_ex_arcs)). Qed.
Print Assumptions C13_trim_search_nonvacuous.

(* min_det = reverse . determinize . trim . reverse . determinize . trim (Brzozowski): whatever determinisation
   procedure is used, if it preserves every string weight (C13_determinize_invariant gives this for the weighted subset
   construction whenever it terminates), the whole pipeline with the modelled trim preserves every string weight. *)
Theorem C13_brzozowski_pipeline : forall (S : SR) (det : wfsa S -> wfsa S),
  (forall m xs, weight (det m) xs = weight m xs) ->
  forall m xs,
    weight (TrimSearch.trim_model (det (wreverse (TrimSearch.trim_model (det (wreverse m)))))) xs = weight m xs.
Proof.
  intros S det Hdet m xs.
  rewrite (proj1 (C13_trim_search S _)), Hdet, (reverse_weight S), (proj1 (C13_trim_search S _)), Hdet, (reverse_weight S), rev_involutive.
  reflexivity.
Qed.
Print Assumptions C13_brzozowski_pipeline.

(* The checkers the correspondence run evaluates on every automaton the implementation returns mean what they say:
   [deterministic] holds exactly when there is at most one initial state, no epsilon arc and at most one arc per state
   and symbol; [is_trim] holds exactly when every state lies on a path from an initial state and on a path to a final
   state; [same_states] compares two state lists as sets. *)
From GV.proofs Require DetCheckerProofs.
Theorem C13_checkers_sound_complete : forall (S : SR) (m : wfsa S),
  (deterministic m = true <->
     (forall e1 e2, In e1 (winit m) -> In e2 (winit m) -> fst e1 = fst e2) /\
     (forall ar, In ar (warcs m) -> albl ar <> None) /\
     (forall i j ar1 ar2 a, nth_error (warcs m) i = Some ar1 -> nth_error (warcs m) j = Some ar2 ->
        asrc ar1 = asrc ar2 -> albl ar1 = Some a -> albl ar2 = Some a -> i = j)) /\
  (is_trim m = true <->
     forall q, In q (all_states m) ->
       (exists e, In e (winit m) /\ TrimSearchProofs.path_to m (fst e) q) /\
       (exists e, In e (wfinal m) /\ TrimSearchProofs.path_to m q (fst e))) /\
  (forall q, In q (all_states m) <->
     (exists e, In e (winit m) /\ fst e = q) \/ (exists e, In e (wfinal m) /\ fst e = q) \/
     (exists ar, In ar (warcs m) /\ (asrc ar = q \/ adst ar = q))) /\
  (forall a b : list nat, TrimSearch.same_states a b = true <-> (forall x, In x a <-> In x b)).
Proof.
  intros S m.
  split; [exact (DetCheckerProofs.deterministic_spec S m)|].
  split; [exact (DetCheckerProofs.is_trim_spec S m)|].
  split; [intros q; exact (DetCheckerProofs.all_states_spec S m q)|exact TrimSearchProofs.same_states_spec].
Qed.
Print Assumptions C13_checkers_sound_complete.
