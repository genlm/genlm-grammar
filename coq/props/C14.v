(* Property C14: the real-weighted equivalence test is exact (sound and complete).
   Proofs: proofs/TzengProofs.v about the model of Simple.counterexample (model/Tzeng.v) over an exact field,
   ConjugateProofs.v about conjugation by an intertwining matrix (model/Conjugate.v).  numpy's float
   thresholds and pinv are not modelled, and that the code's conjugates satisfy the change-of-basis identities
   is not proved: min is decided by the exact Hankel-rank oracle in the correspondence run. *)
From Coq Require Import List Qcanon.
From GV.lib Require Import Semiring BigSum.
From GV.model Require Import Tzeng.
From GV.proofs Require Import TzengProofs.
Import ListNotations.

(* d = [start_A, -start_B], eta = [stop_A; stop_B], M a = diag(A_a, B_a): d . (M_w eta) = A(w) - B(w). *)

(* soundness: a returned counterexample is a word over the alphabet on which the two automata really
   differ, and the reported value is exactly the difference of their weights *)
Theorem C14_counterexample_sound : forall (F : FR) (idx : list nat) (M : nat -> nat -> nat -> F)
    (d eta : nat -> F) (alphabet : list nat) (fuel : nat) (w : list nat) (v : F),
  counterexample idx M d eta alphabet fuel = Some (Some (w, v)) ->
  v = dot idx d (act idx M w eta) /\ v <> s0 /\ (forall a, In a w -> In a alphabet).
Proof.
  intros F idx M d eta alphabet fuel w v H.
  destruct (cex_sound F idx M d eta alphabet fuel w v H) as [H1 H2].
  split; [exact H1|split; [exact H2|exact (cex_word_over_alphabet F idx M d eta alphabet fuel w v H)]].
Qed.
Print Assumptions C14_counterexample_sound.

(* completeness: if the search reports no counterexample (and did not run out of fuel), the automata
   assign equal weights to EVERY word over the alphabet *)
Theorem C14_none_means_equivalent : forall (F : FR) (idx : list nat) (M : nat -> nat -> nat -> F)
    (d eta : nat -> F) (alphabet : list nat) (fuel : nat),
  counterexample idx M d eta alphabet fuel = Some None ->
  forall w, (forall a, In a w -> In a alphabet) -> dot idx d (act idx M w eta) = s0.
Proof. intros; eapply none_complete; eassumption. Qed.
Print Assumptions C14_none_means_equivalent.

(* over the rationals (the instance executed in the correspondence run) the basis built by the search
   stays orthogonal with non-zero members (Gram-Schmidt), which bounds its size by the dimension *)
Theorem C14_rational_instance : forall (idx : list nat) (M : nat -> nat -> nat -> Qc) (d eta : nat -> Qc)
    (alphabet : list nat) (fuel : nat),
  (forall w v, counterexample (F:=QcFR) idx M d eta alphabet fuel = Some (Some (w, v)) ->
     v = dot (F:=QcFR) idx d (act (F:=QcFR) idx M w eta) /\ v <> 0%Qc) /\
  (counterexample (F:=QcFR) idx M d eta alphabet fuel = Some None ->
     forall w, (forall a, In a w -> In a alphabet) -> dot (F:=QcFR) idx d (act (F:=QcFR) idx M w eta) = 0%Qc).
Proof.
  intros idx M d eta alphabet fuel. split.
  - intros w v H. exact (Qc_cex_sound idx M d eta alphabet fuel w v H).
  - intros H w Hw. exact (Qc_none_complete idx M d eta alphabet fuel H w Hw).
Qed.
Print Assumptions C14_rational_instance.

(* Minimisation (Simple.min = forward conjugate, then backward conjugate), in matrix form over any
   commutative semiring (model/Conjugate.v): a matrix F that intertwines two automata (alpha = alpha' F,
   F M_a = M'_a F, omega' = F omega) makes them equivalent on every word; likewise backwards; hence the
   automaton returned by min is equivalent to its input whenever the two change-of-basis matrices satisfy
   the intertwining identities the code relies on.  The concrete conjugate (start P, F M P, F stop) with
   F P F = F, alpha in the row space of F and the row space closed under every M_a satisfies them. *)
From GV.model Require Import Conjugate.
From GV.proofs Require ConjugateProofs.
Theorem C14_conjugates_are_equivalent : forall (S : SR) (F G : nat -> nat -> S) (A B C : mauto S),
  intertwines F A B -> intertwines_back G B C -> forall w, mweight A w = mweight C w.
Proof. intros; eapply ConjugateProofs.min_equivalent; eassumption. Qed.
Print Assumptions C14_conjugates_are_equivalent.

Theorem C14_forward_conjugate : forall (S : SR) (A : mauto S) (dimB : list nat) (F P : nat -> nat -> S)
    (c : nat -> S) (Nm : nat -> nat -> nat -> S),
  ConjugateProofs.FPF S A dimB F P ->
  (forall j, In j (dim A) -> mstart A j = bsum dimB (fun i => smul (c i) (F i j))) ->
  (forall a i j, In i dimB -> In j (dim A) ->
     bsum (dim A) (fun k => smul (F i k) (marc A a k j)) = bsum dimB (fun n => smul (Nm a i n) (F n j))) ->
  forall w, mweight A w = mweight (conj dimB F P A) w.
Proof. intros; eapply ConjugateProofs.conj_equivalent_pinv; eassumption. Qed.
Print Assumptions C14_forward_conjugate.
