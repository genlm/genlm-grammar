(* Property C11: automaton string weight is the sum over accepting paths.
   Proofs: proofs/WfsaProofs.v, EpsRemove.v, LehmannProof.v, ClosureExtra.v, EpsEquations.v (epsilon cycles),
   TotalWeightProofs.v; the regenerated epsremove is tied to the model in RationalOps.v. *)
From Coq Require Import List Arith.
From GV.lib Require Import Semiring BigSum.
From GV.model Require Import Linear Wfsa WfsaEps EpsSpec.
From GV.gen Require Import Gen_Wfsa.
From GV.proofs Require Import WfsaProofs LehmannProof ClosureExtra EpsRemove RationalOps.
Import ListNotations.

(* the forward pass of WFSA.__call__ on an epsilon-free machine is the sum over all accepting
   paths (initial weight x arc weights x final weight), any commutative semiring *)
Theorem C11_forward_is_path_sum : forall (S : SR) (m : wfsa S) (xs : list nat),
  weight m xs = pathsum m xs /\ pathsum m xs = bsum (apaths m xs) apath_weight.
Proof. intros; split; [apply forward_pathsum|apply pathsum_paths]. Qed.
Print Assumptions C11_forward_is_path_sum.

(* epsilon removal: no epsilon arcs remain, and the result computes alpha K A_x1 K ... A_xn K omega
   for whatever table K it is given (the closure is applied to the start vector and after every arc) *)
Theorem C11_epsremove_shape : forall (S : StarSR) (K : mat S) (m : wfsa S),
  (forall ar, In ar (warcs (epsremove_with K m)) -> albl ar <> None) /\
  (forall xs, weight (epsremove_with K m) xs = matrix_form K (states_of m) m xs).
Proof. intros; split; [apply epsremove_eps_free|intros; apply epsremove_matrix_form]. Qed.
Print Assumptions C11_epsremove_shape.

(* Main theorem: for an epsilon-acyclic automaton, m(xs) as computed by the library (Lehmann closure
   of the epsilon graph, epsilon removal, forward pass) is the sum over ALL accepting paths of m that
   spell xs, epsilon arcs included -- over every star semiring on which the closure is defined. *)
Theorem C11_call_is_path_sum : forall (S : StarSR) (m : wfsa S) (d : nat) (xs : list nat) (fuel : nat),
  defined S (states_of m) (eps_mat m) ->
  (forall i k, In i (states_of m) -> In k (states_of m) -> fpow S (states_of m) (epsf m) d i k = s0) ->
  (length xs + 1) * d + length xs <= fuel ->
  call m xs = pathsum_e m fuel xs.
Proof.
  intros S m d xs fuel Hdef Hnil Hfuel. unfold call, epsremove.
  apply epsremove_acyclic_paths with (d := d); [apply lehmann_eps_closure; exact Hdef|exact Hnil|exact Hfuel].
Qed.
Print Assumptions C11_call_is_path_sum.

(* general (cyclic) case: the closure table computed by Lehmann's elimination satisfies
   K = I + E K = I + K E, the algebraic characterisation of "sum over all epsilon paths" *)
Theorem C11_closure_fixpoint : forall (S : StarSR) (nodes : list nat) (A : mat S),
  NoDup nodes -> defined S nodes A -> forall i k, In i nodes -> In k nodes ->
  mget (lehmann nodes A) i k = sadd (fid i k) (bsum nodes (fun j => smul (mget A i j) (mget (lehmann nodes A) j k))) /\
  mget (lehmann nodes A) i k = sadd (fid i k) (bsum nodes (fun j => smul (mget (lehmann nodes A) i j) (mget A j k))).
Proof. intros; split; [apply lehmann_fixpoint_l|apply lehmann_fixpoint_r]; assumption. Qed.
Print Assumptions C11_closure_fixpoint.

(* WFSA.epsremove as regenerated from wfsa/base.py (with the closure table K of the epsilon graph)
   is the model's epsremove_with. *)
Theorem C11_code_epsremove_is_model : forall (S : StarSR) (K : mat S) (m : wfsa S),
  gen_epsremove_with S K (states_of m) m = epsremove_with K m.
Proof. intros; apply gen_epsremove_model. Qed.
Print Assumptions C11_code_epsremove_is_model.

(* Automata with epsilon CYCLES: the sum over all paths is infinite, but in every star semiring the values
   the library computes (closure table K of the epsilon graph, K = I + E K, which Lehmann's elimination is
   proved to return whenever its pivot stars are defined) satisfy the PATH EQUATIONS of the automaton:
   from a state one either stops / reads the next symbol on a real arc, or first takes an epsilon arc. *)
From GV.proofs Require EpsEquations.
Theorem C11_path_equations : forall (S : StarSR) (m : wfsa S),
  LehmannProof.defined S (states_of m) (eps_mat m) ->
  let st := states_of m in
  let K := lehmann st (eps_mat m) in
  let v := EpsEquations.val K m in
  (forall xs, call m xs = bsum (winit m) (fun e => smul (snd e) (v (fst e) xs))) /\
  (forall q, In q st -> v q [] = sadd (wget (wfinal m) q) (bsum st (fun j => smul (epsf m q j) (v j [])))) /\
  (forall q a xs, In q st ->
     v q (a :: xs) = sadd (bsum (warcs m) (fun ar => if andb (Nat.eqb (asrc ar) q) (lbl_eqb (albl ar) a)
                                                   then smul (awt ar) (v (adst ar) xs) else s0))
                          (bsum st (fun j => smul (epsf m q j) (v j (a :: xs))))).
Proof. intros S m Hd. exact (EpsEquations.call_path_equations S m Hd). Qed.
Print Assumptions C11_path_equations.

(* Total weight.  The library computes the total weight of an automaton as sum_i start[i] * b[i] with b the backward
   vector, a solution of b = F + A b (A = arc-weight matrix, F = final weights; the block solvers are proved to
   return a solution in C15).  For an epsilon-free automaton whose arc graph is acyclic (every product of N
   consecutive arc weights vanishes) that system has exactly one solution -- the sums over accepting paths by
   number of arcs -- and the total equals the sum of the weights of ALL strings, every accepting path once
   (any commutative semiring; proofs/TotalWeightProofs.v). *)
From GV.proofs Require ProductProofs TotalWeightProofs.
Theorem C11_total_weight : forall (S : SR) (V Q : list nat) (m : wfsa S) (N : nat) (b : nat -> S),
  NoDup V -> NoDup Q ->
  (forall ar, In ar (warcs m) -> exists a, albl ar = Some a /\ In a V) ->
  (forall ar, In ar (warcs m) -> In (adst ar) Q) -> (forall e, In e (winit m) -> In (fst e) Q) ->
  TotalWeightProofs.nilpotent m Q (Datatypes.S N) ->
  (forall q, In q Q -> b q = sadd (wget (wfinal m) q) (bsum Q (fun j => smul (TotalWeightProofs.arcw m q j) (b j)))) ->
  bsum (winit m) (fun e => smul (snd e) (b (fst e))) = bsum (ProductProofs.words_le V N) (fun xs => pathsum m xs) /\
  (forall q, In q Q -> b q = bsum (seq 0 (Datatypes.S N)) (fun n => TotalWeightProofs.paths_n m Q n q)).
Proof.
  intros S V Q m N b HV HQ Hl Hd Hi Hn Hb. split.
  - exact (TotalWeightProofs.total_weight_is_string_sum_le S V Q m N b HV HQ Hl Hd Hi Hn Hb).
  - intros q Hq. exact (TotalWeightProofs.backward_is_path_sum S Q m (Datatypes.S N) b Hn Hb q Hq).
Qed.
Print Assumptions C11_total_weight.
