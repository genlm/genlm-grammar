(* Property C12: rational operations implement the algebra of weighted languages.
   Proofs: proofs/WfsaProofs.v, RationalOps.v, StarStringProofs.v.
   [weight] is the forward pass on an epsilon-free machine (proved equal to the sum over accepting
   paths, C11); [pathsum_e m fuel] is the sum over all accepting paths of at most fuel arcs,
   epsilon arcs included. *)
From Coq Require Import List Arith.
From GV.lib Require Import Semiring BigSum.
From GV.model Require Import Cfg Wfsa WfsaEps.
From GV.gen Require Import Gen_Wfsa.
From GV.proofs Require Import WfsaProofs RationalOps.
Import ListNotations.

Theorem C12_union : forall (S : SR) (a b : wfsa S) xs, weight (wunion a b) xs = sadd (weight a xs) (weight b xs).
Proof. intros; apply union_weight. Qed.
Print Assumptions C12_union.

Theorem C12_reverse : forall (S : SR) (m : wfsa S) xs, weight (wreverse m) xs = weight m (rev xs).
Proof. intros; apply reverse_weight. Qed.
Print Assumptions C12_reverse.

Theorem C12_rename_injective : forall (S : SR) (f : nat -> nat) (m : wfsa S) xs,
  (forall p q, f p = f q -> p = q) -> weight (rename f m) xs = weight m xs.
Proof. intros; apply rename_weight; assumption. Qed.
Print Assumptions C12_rename_injective.

(* (A.B)(x) = sum over the splits x = u v of A(u) B(v) *)
Theorem C12_concat : forall (S : SR) (a b : wfsa S) (xs : list nat) (fuel : nat),
  (forall ar, In ar (warcs a) -> albl ar <> None) -> (forall ar, In ar (warcs b) -> albl ar <> None) ->
  length xs < fuel ->
  pathsum_e (wconcat a b) fuel xs = bsum (splits xs) (fun p => smul (pathsum a (fst p)) (pathsum b (snd p))).
Proof. intros; apply concat_pathsum; assumption. Qed.
Print Assumptions C12_concat.

(* A+(x) = A(x) + sum over the splits x = u v with both parts non-empty of A(u) A+(v)
   (operand with no state both initial and final, so every iteration consumes a symbol) *)
Theorem C12_plus : forall (S : SR) (a : wfsa S) (xs : list nat),
  (forall ar, In ar (warcs a) -> albl ar <> None) ->
  (forall i f, In i (winit a) -> In f (wfinal a) -> fst i <> fst f) ->
  forall fuel, 2 * length xs < fuel -> pathsum_e (wplus a) fuel xs = kplus a (length xs) xs.
Proof. intros; apply plus_unfold; assumption. Qed.
Print Assumptions C12_plus.

Theorem C12_one_zero_lift : forall (S : SR),
  (forall xs fuel, 1 <= fuel -> pathsum_e (@wone S) fuel xs = match xs with [] => s1 | _ => s0 end) /\
  (forall xs, weight (@wzero S) xs = s0) /\
  (forall (x : nat) (w : S) xs, weight (wlift (Some x) w) xs = match xs with [y] => if Nat.eqb x y then w else s0 | _ => s0 end).
Proof. intros S. split; [intros; apply one_pathsum; assumption|split; [apply zero_weight|apply lift_weight]]. Qed.
Print Assumptions C12_one_zero_lift.

(* The constructions the theorems above are about are the ones the code performs: the definitions
   regenerated from wfsa/base.py (rename, reverse, __add__, __mul__, kleene_plus, star, lift, one, zero,
   through spawn and rename_apart) on every run coincide with the model. *)
Theorem C12_code_is_model : forall (S : SR) (a b : wfsa S) (f : nat -> nat) (x : option nat) (w : S),
  gen_add S a b = wunion a b /\ gen_mul S a b = wconcat a b /\ gen_kleene_plus S a = wplus a /\
  gen_star S a = wstar a /\ gen_reverse S a = wreverse a /\ gen_rename S f a = rename f a /\
  gen_lift S x w = wlift x w /\ gen_one S = wone /\ gen_zero S = wzero.
Proof.
  intros S a b f x w.
  exact (conj (gen_add_model S a b) (conj (gen_mul_model S a b) (conj (gen_kleene_plus_model S a)
        (conj (gen_star_model S a) (conj (gen_reverse_model S a) (conj (gen_rename_model S f a)
        (conj (gen_lift_model S x w) (conj (gen_one_model S) (gen_zero_model S))))))))).
Qed.
Print Assumptions C12_code_is_model.

(* Kleene star and construction from a string (proofs/StarStringProofs.v).  Union also holds for the epsilon-aware
   path semantics at every fuel, operands with epsilon arcs included; star(A)(x) = [x is empty] + A+(x), where A+ is
   the sum over all factorisations of x into non-empty factors of the product of A on the factors (kplus); the
   automaton built from a string xs (hand-written model of WFSA.from_string: one state per prefix) gives xs the
   weight w and every other string zero. *)
From GV.proofs Require StarStringProofs.
Theorem C12_union_with_epsilon : forall (S : SR) (a b : wfsa S) (fuel : nat) (xs : list nat),
  pathsum_e (wunion a b) fuel xs = sadd (pathsum_e a fuel xs) (pathsum_e b fuel xs).
Proof. intros S a b fuel xs. exact (StarStringProofs.union_pathsum_e S a b fuel xs). Qed.
Print Assumptions C12_union_with_epsilon.

Theorem C12_star : forall (S : SR) (a : wfsa S) (xs : list nat),
  (forall ar, In ar (warcs a) -> albl ar <> None) ->
  (forall i f, In i (winit a) -> In f (wfinal a) -> fst i <> fst f) ->
  forall fuel, 2 * length xs < fuel ->
  pathsum_e (wstar a) fuel xs = sadd (match xs with [] => s1 | _ => s0 end) (kplus a (length xs) xs).
Proof. intros S a xs H1 H2 fuel Hf. exact (StarStringProofs.star_unfold S a xs H1 H2 fuel Hf). Qed.
Print Assumptions C12_star.

Theorem C12_from_string : forall (S : SR) (xs : list nat) (w : S) (ys : list nat),
  weight (StarStringProofs.from_string xs w) ys = (if list_eqb Nat.eqb ys xs then w else s0) /\
  pathsum (StarStringProofs.from_string xs w) ys = (if list_eqb Nat.eqb ys xs then w else s0).
Proof.
  intros S xs w ys. split; [exact (StarStringProofs.from_string_weight_call S xs w ys)|exact (StarStringProofs.from_string_weight S xs w ys)].
Qed.
Print Assumptions C12_from_string.

(* WFSA.from_string as regenerated from wfsa/base.py on every run (states = prefixes, named by their lengths) is the
   model C12_from_string is about; the correspondence run evaluates the regenerated definition. *)
From GV.gen Require Gen_FromString.
Theorem C12_code_from_string_is_model : forall (S : SR) (xs : list nat) (w : S) (ys : list nat),
  Gen_FromString.gen_from_string S xs w = StarStringProofs.from_string xs w /\
  weight (Gen_FromString.gen_from_string S xs w) ys = (if list_eqb Nat.eqb ys xs then w else s0).
Proof.
  intros S xs w ys. split; [exact (StarStringProofs.gen_from_string_model S xs w)|].
  rewrite (StarStringProofs.gen_from_string_model S xs w). exact (StarStringProofs.from_string_weight_call S xs w ys).
Qed.
Print Assumptions C12_code_from_string_is_model.
