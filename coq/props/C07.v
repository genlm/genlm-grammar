(* Property C07: normal forms satisfy their structural postconditions.
   (a) for EVERY grammar, the models of the transformations (model/Transform2.v) produce the promised
       shapes, and the CNF pipeline ends in Chomsky normal form;
   (b) the checkers that the correspondence run evaluates on every output of the implementation are
       sound and complete for the predicates they stand for.
   (c) the modelled trim() returns only useful symbols and is idempotent, for every grammar.
   Proofs: proofs/ShapeProofs.v, UsefulProofs.v, TrimProofs.v, TopDownTrimProofs.v, TrimUsefulProofs.v. *)
From Coq Require Import List Relations.
From GV.lib Require Import Semiring.
From GV.model Require Import Cfg Transform Cky Transform2 Useful.
From GV.proofs Require Import TrimProofs ShapeProofs UsefulProofs.
Import ListNotations.

Theorem C07_transform_shapes : forall (S : SR) (G : grammar S),
  (forall fresh, arity_le2 (binarize fresh G) = true) /\
  (forall pt, terminals_separated (separate_terminals pt G) = true) /\
  (forall nullw nn s, no_nullary_except s (push_null_weights nullw nn s G) = true) /\
  (forall K nts, no_unary (unaryremove K nts G) = true) /\
  (forall s' s, (forall r, In r G -> ~ In (N s') (rbody r)) -> s' <> s ->
     start_not_on_rhs (fst (separate_start s' s G)) (snd (separate_start s' s G)) = true).
Proof.
  intros S G. repeat apply conj; intros.
  - apply binarize_arity. - apply separate_terminals_shape. - apply push_null_no_nullary.
  - apply unaryremove_no_unary. - apply separate_start_shape; assumption.
Qed.
Print Assumptions C07_transform_shapes.

(* cnf = separate_terminals . binarize . separate_start . push_null_weights . trim . unaryremove . trim
   (the trims only drop rules): the result is in Chomsky normal form, so `assert new.in_cnf()` holds. *)
Theorem C07_cnf_pipeline : forall (S : SR) (G : grammar S) (pt : nat -> nat) (fresh s' s : nat)
    (nullw : nat -> S) (nn : nat -> nat) (K : nat -> nat -> S) (nts : list nat) (G5 : grammar S),
  let G1 := separate_terminals pt G in
  let G2 := binarize fresh G1 in
  let s2 := fst (separate_start s' s G2) in
  let G3 := snd (separate_start s' s G2) in
  let G4 := push_null_weights nullw nn s2 G3 in
  (forall r, In r G2 -> ~ In (N s') (rbody r)) -> s' <> s ->
  (forall x, nn x <> s2) -> (forall Y, Y <> s2 -> K Y s2 = s0) ->
  (forall r, In r G5 -> exists G4', (forall r', In r' G4' -> In r' G4) /\ In r (unaryremove K nts G4')) ->
  in_cnf s2 G5 = true.
Proof.
  intros S G pt fresh s' s nullw nn K nts G5 G1 G2 s2 G3 G4 Hfresh Hne Hnn HK H5.
  apply (in_cnf_incl S s2 (unaryremove K nts G4)); [|apply cnf_pipeline_shape; assumption].
  intros r Hr. destruct (H5 r Hr) as [G4' [Hsub Hin]]. exact (unaryremove_incl S K nts G4 G4' Hsub r Hin).
Qed.
Print Assumptions C07_cnf_pipeline.

(* checkers = predicates *)
Theorem C07_checkers_sound_complete : forall (S : SR) (s : nat) (G : grammar S),
  (in_cnf s G = true <->
     forall r, In r G -> (rbody r = [] /\ rhead r = s) \/ (exists a, rbody r = [T a]) \/
                         (exists y z, rbody r = [N y; N z] /\ y <> s /\ z <> s)) /\
  (arity_le2 G = true <-> forall r, In r G -> length (rbody r) <= 2) /\
  (no_unary G = true <-> forall r y, In r G -> rbody r <> [N y]) /\
  (no_nullary_except s G = true <-> forall r, In r G -> rbody r = [] -> rhead r = s) /\
  (start_not_on_rhs s G = true <-> forall r, In r G -> ~ In (N s) (rbody r)) /\
  (all_useful s G = true <->
     forall r, In r G -> (productive G (rhead r) /\ reach S G s (rhead r)) /\
                         (forall x, In (N x) (rbody r) -> productive G x /\ reach S G s x)) /\
  (unary_cyclic G = true <-> exists X, clos_trans nat (uedge S G) X X).
Proof.
  intros S s G.
  exact (conj (in_cnf_spec S s G) (conj (arity_le2_spec S G) (conj (no_unary_spec S G) (conj (no_nullary_except_spec S s G)
        (conj (start_not_on_rhs_spec S s G) (conj (all_useful_spec S s G) (unary_cyclic_spec S G))))))).
Qed.
Print Assumptions C07_checkers_sound_complete.

(* a trimmed grammar with a non-generating start symbol has no rules *)
Theorem C07_useful_empty_language : forall (S : SR) (s : nat) (G : grammar S),
  all_useful s G = true -> ~ productive G s -> G = [].
Proof.
  intros S s G Hu Hn. destruct G as [|r G']; [reflexivity|].
  destruct (Hn (all_useful_start_productive S s _ r Hu (or_introl eq_refl))).
Qed.
Print Assumptions C07_useful_empty_language.

Example C07_nonvacuous :
  in_cnf 0 [((true : BoolSR), 0, []); (true, 0, [N 1; N 1]); (true, 1, [T 0])] = true /\
  all_useful 0 [((true : BoolSR), 0, [N 1; N 1]); (true, 1, [T 0])] = true /\
  all_useful 0 [((true : BoolSR), 0, [T 0; N 0; T 0])] = false /\
  unary_cyclic [((true : BoolSR), 0, [N 1]); (true, 1, [N 0])] = true.
Proof. vm_compute. repeat split. Qed.
Print Assumptions C07_nonvacuous.

(* trim(): for EVERY grammar and start symbol the modelled trim (model/TopDown.v; its rule list is compared with the
   implementation's on every run, and it is proved weight-preserving in C06) returns a grammar all of whose symbols
   are useful in the result -- every head and every body nonterminal is productive in the trimmed grammar and
   reachable from the start symbol in the trimmed grammar; an already trimmed grammar is returned unchanged (same
   rules, order and weights), so trimming is idempotent. *)
From GV.model Require TopDown.
From GV.proofs Require TopDownTrimProofs TrimUsefulProofs.
Theorem C07_trim_all_useful : forall (S : SR) (s : nat) (G : grammar S),
  all_useful s (TopDown.trim_model s G) = true /\
  (all_useful s G = true -> TopDown.trim_model s G = G) /\
  TopDown.trim_model s (TopDown.trim_model s G) = TopDown.trim_model s G.
Proof.
  intros S s G.
  split; [exact (TrimUsefulProofs.trim_model_all_useful S s G)|].
  split; [exact (TrimUsefulProofs.all_useful_trim_fixed S s G)|exact (TrimUsefulProofs.trim_model_idempotent S s G)].
Qed.
Print Assumptions C07_trim_all_useful.

Example C07_trim_nonvacuous :
  all_useful 0 (TopDown.trim_model 0 TopDownTrimProofs.td_ex_G) = true /\
  all_useful 0 TopDownTrimProofs.td_ex_G = false /\
  length (TopDown.trim_model 0 TopDownTrimProofs.td_ex_G) = 3.
Proof. vm_compute. repeat split. Qed.
Print Assumptions C07_trim_nonvacuous.

(* what the rule-list comparison of the correspondence run decides *)
Theorem C07_rule_list_comparison : forall (S : SR) (G1 G2 : grammar S),
  TopDown.shape_eqb G1 G2 = true <-> map (fun r => (rhead r, rbody r)) G1 = map (fun r => (rhead r, rbody r)) G2.
Proof. intros S G1 G2. exact (TopDownTrimProofs.shape_eqb_spec S G1 G2). Qed.
Print Assumptions C07_rule_list_comparison.
