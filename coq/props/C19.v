(* Property C19: character- and byte-level grammars built from Lark grammars.
   lark's grammar loading is not modelled.  Proved here: the assembly principle of _char_cfg -- the
   result is the union of the rule grammar and one grammar per terminal, with names chosen apart --
   keeps every component's weights (other components' rules are invisible), and each terminal's
   grammar generates exactly its automaton's language (C17); the assembled grammar has the substitution
   semantics at the level of the grammar equations (C19_substitution_semantics, proofs/SubstProofs.v).  That
   the assembled grammars accept the Lark language is decided by the correspondence run against that
   semantics. *)
From Coq Require Import List.
From GV.lib Require Import Semiring BigSum.
From GV.model Require Import Cfg Wfsa WfsaEps.
From GV.proofs Require Import UnionProofs ConvertProofs.
Import ListNotations.

(* In G1 ++ G2, if no rule of G2 has as head a nonterminal occurring in G1, every nonterminal of G1 has
   exactly the weights it has in G1 alone (and symmetrically): merging per-terminal grammars whose
   names do not collide never changes what each of them generates. *)
Theorem C19_union_keeps_components : forall (S : SR) (G1 G2 : grammar S),
  ((forall r, In r G2 -> forall X, (exists r1, In r1 G1 /\ (rhead r1 = X \/ In (N X) (rbody r1))) -> rhead r <> X) ->
   forall h X xs, (exists r1, In r1 G1 /\ (rhead r1 = X \/ In (N X) (rbody r1))) -> W (G1 ++ G2) h X xs = W G1 h X xs) /\
  ((forall r, In r G1 -> forall X, (exists r2, In r2 G2 /\ (rhead r2 = X \/ In (N X) (rbody r2))) -> rhead r <> X) ->
   forall h X xs, (exists r2, In r2 G2 /\ (rhead r2 = X \/ In (N X) (rbody r2))) -> W (G1 ++ G2) h X xs = W G2 h X xs).
Proof. intros S G1 G2; split; intros; [eapply union_component_nts|eapply union_component_r_nts]; eassumption. Qed.
Print Assumptions C19_union_keeps_components.

(* each terminal's grammar (to_cfg of its automaton) has the automaton's path sums *)
Theorem C19_terminal_grammar : forall (S : SR) (m : wfsa S) (s0 : nat) (nt : nat -> nat) (f : nat) (xs : list nat),
  (forall p p', nt p = nt p' -> p = p') -> (forall p, nt p <> s0) ->
  W (to_cfg_right s0 nt m) (Datatypes.S (Datatypes.S f)) s0 xs = pathsum_e m f xs.
Proof. intros; apply to_cfg_right_start; assumption. Qed.
Print Assumptions C19_terminal_grammar.

(* The assembly of _char_cfg as a substitution: the token-level grammar Gtop (its terminals are token
   names), every token t replaced by the start symbol st t of its component grammar, plus the component
   grammars Gcomp, names chosen apart.  If g solves the components (no token matches the empty string)
   and f solves Gtop over token strings, then the valuation
      Z |-> sum over token strings tau of f Z tau * (weight of segmenting xs into matches of tau)
   solves the assembled grammar: the assembled grammar has the substitution semantics, for every
   commutative semiring and also for cyclic grammars. *)
From GV.proofs Require FoldProofs SubstProofs ProductProofs.
Theorem C19_substitution_semantics : forall (S : SR) (Gtop Gcomp : grammar S) (st : nat -> nat) (toks : list nat)
    (g f : nat -> list nat -> S),
  NoDup toks ->
  (forall r rc, In r Gtop -> In rc Gcomp -> rhead rc <> rhead r) ->
  (forall r rc Y, In r Gtop -> In (N Y) (rbody r) -> In rc Gcomp -> rhead rc <> Y) ->
  (forall r t, In r Gtop -> In t toks -> rhead r <> st t) ->
  (forall r t, In r Gtop -> In (T t) (rbody r) -> In t toks) ->
  (forall r rc Y, In r Gtop -> In rc Gcomp -> In (N Y) (rbody rc) -> rhead r <> Y) ->
  FoldProofs.solves S Gcomp g -> FoldProofs.solves S Gtop f ->
  (forall t, In t toks -> g (st t) [] = s0) ->
  FoldProofs.solves S (SubstProofs.assembled S Gtop Gcomp st) (SubstProofs.Fsub S Gcomp st toks g f) /\
  (forall Z xs, (exists r, In r Gtop /\ rhead r = Z) ->
     SubstProofs.Fsub S Gcomp st toks g f Z xs =
     bsum (ProductProofs.words_le toks (length xs)) (fun tau => smul (f Z tau) (SubstProofs.seg S (SubstProofs.Ltok S st g) tau xs))).
Proof.
  intros S Gtop Gcomp st toks g f Hnd H1a H1b H2 H3 H6 Hg Hf H5. split.
  - exact (SubstProofs.subst_solves S Gtop Gcomp st toks g f Hnd H1a H1b H2 H3 H6 Hg Hf H5).
  - intros Z xs HZ. exact (SubstProofs.subst_top_value S Gtop Gcomp st toks g f H1a Z xs HZ).
Qed.
Print Assumptions C19_substitution_semantics.
