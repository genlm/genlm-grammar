(* Property C05: incremental parsing is history-independent; queries are pure.
   The memo table of Earley.chart / IncrementalCKY.chart (a cache from prefixes to charts, filled
   recursively through x[:-1], cleared by clear_cache) is modelled as a state machine over immutable
   column values; proofs in proofs/CacheProofs.v.  Statements only. *)
From Coq Require Import List.
From GV.model Require Import Cache.
From GV.proofs Require Import CacheProofs.
Import ListNotations.

(* For EVERY history of queries and cache clears, starting from any consistent cache (in particular
   the empty one), every answer equals the answer a brand-new object gives to that query alone, and
   the cache stays consistent (every cached chart is the chart of its prefix). *)
Theorem C05_history_independent : forall (col : Type) (init : col) (next : list col -> nat -> col)
    (out : Type) (answer : list col -> list nat -> out) (ops : list op) (m : cache col),
  cache_ok init next m ->
  snd (run init next answer m ops) = map (fresh_answer init next answer) ops /\
  cache_ok init next (fst (run init next answer m ops)).
Proof. intros; apply run_history_independent; assumption. Qed.
Print Assumptions C05_history_independent.

Theorem C05_from_fresh_object : forall (col : Type) (init : col) (next : list col -> nat -> col)
    (out : Type) (answer : list col -> list nat -> out) (ops : list op),
  snd (run init next answer [] ops) = map (fresh_answer init next answer) ops.
Proof. intros; apply run_from_empty. Qed.
Print Assumptions C05_from_fresh_object.

(* the answers to the rest of a history do not depend on what was asked before *)
Theorem C05_suffix_independent : forall (col : Type) (init : col) (next : list col -> nat -> col)
    (out : Type) (answer : list col -> list nat -> out) (ops1 ops2 : list op),
  snd (run init next answer [] (ops1 ++ ops2)) =
  map (fresh_answer init next answer) ops1 ++ map (fresh_answer init next answer) ops2.
Proof. intros. rewrite run_from_empty, map_app. reflexivity. Qed.
Print Assumptions C05_suffix_independent.

(* non-vacuity: a concrete history with a re-query, a sibling prefix and a clear *)
Example C05_history_example :
  snd (run (col:=nat) 0 (fun c a => length c + a) (fun c r => (length c, r))
           [] [Query [1; 0]; Query [0]; Query [2; 0]; Clear; Query [1; 0]])
  = [Some (3, [1; 0]); Some (2, [0]); Some (3, [2; 0]); None; Some (3, [1; 0])].
Proof. vm_compute. reflexivity. Qed.
Print Assumptions C05_history_example.
