(* Property C20: local normalisation yields the proportional proper grammar; EOS wrapping.
   Proofs: proofs/NormProofs.v (about the regenerated factor Gen_Exprs.norm_factor), LnormStringsProofs.v (string
   level), GenCfgBridge.v (regenerated add_EOS). *)
From Coq Require Import List Arith.
From GV.lib Require Import Semiring BigSum.
From GV.model Require Import Cfg Norm.
From GV.gen Require Import Gen_Exprs Gen_Cfg.
From GV.proofs Require Import NormProofs GenCfgBridge.
Import ListNotations.

(* If Z solves the grammar equations and Z[X] <> 0, the normalised weights of X's rules sum to one. *)
Theorem C20_heads_sum_to_one : forall (F : FR) (Z : sym -> F) (G : grammar F) (X : nat),
  solves Z G -> Z (N X) <> s0 -> head_mass (lnorm (norm_factor F) Z G) X = s1.
Proof. intros; apply lnorm_heads_sum_to_one; assumption. Qed.
Print Assumptions C20_heads_sum_to_one.

(* Every derivation tree's weight is divided by Z of its root (hence every string's weight,
   finite or infinite sum, is divided by Z[S], and the total becomes one); the rules of the normalised
   grammar are exactly the rescaled rules whose head has Z non-zero.  [tmap] rescales weights only: the mapped
   tree keeps the rule indices of G, which are not positions in the normalised rule list when a rule was
   dropped; the string-level theorem C20_strings_proportional relates the two grammars. *)
Theorem C20_tree_proportional : forall (F : FR) (Z : sym -> F) (G : grammar F),
  (forall a, Z (T a) = s1) ->
  (forall t s, twf F G s t -> (forall X, occurs_nt F X t -> Z (N X) <> s0) ->
     smul (tweight (tmap F Z t)) (Z s) = tweight t) /\
  (forall r, In r G -> Z (N (rhead r)) <> s0 ->
     In (norm_factor F (rw r) (prodZ Z (rbody r)) (Z (N (rhead r))), rhead r, rbody r) (lnorm (norm_factor F) Z G)) /\
  (forall r', In r' (lnorm (norm_factor F) Z G) ->
     exists r, In r G /\ Z (N (rhead r)) <> s0 /\
       r' = (norm_factor F (rw r) (prodZ Z (rbody r)) (Z (N (rhead r))), rhead r, rbody r)).
Proof.
  intros F Z G HT. split; [intros t s Hw Hz; exact (lnorm_tree_proportional F Z G HT t s Hw Hz)|].
  split; [intros; apply lnorm_rule_in; assumption|intros; apply lnorm_rule_from; assumption].
Qed.
Print Assumptions C20_tree_proportional.

(* add_EOS: the wrapped grammar gives xs ++ [eos] the weight of xs (one more level), and the
   old nonterminals keep their weights. *)
Theorem C20_add_eos : forall (S : SR) (G : grammar S) (s' s eos : nat) (h : nat) (xs : list nat),
  (forall r, In r G -> rhead r <> s') -> (forall r, In r G -> ~ In (N s') (rbody r)) ->
  W (add_eos s' s eos G) (Datatypes.S h) s' (xs ++ [eos]) = W G h s xs.
Proof. intros; apply add_eos_W; assumption. Qed.
Print Assumptions C20_add_eos.

(* strings that do not end in exactly one eos: the new start rule needs a split (u, [eos]) *)
Theorem C20_add_eos_shape : forall (S : SR) (G : grammar S) (s' s eos : nat) (h : nat) (ys : list nat),
  (forall r, In r G -> rhead r <> s') -> (forall r, In r G -> ~ In (N s') (rbody r)) ->
  W (add_eos s' s eos G) (Datatypes.S h) s' ys
    = bsum (splits ys) (fun p => smul (W G h s (fst p)) (match snd p with [e] => if Nat.eqb eos e then s1 else s0 | _ => s0 end)).
Proof. intros; apply add_eos_W_new; assumption. Qed.
Print Assumptions C20_add_eos_shape.

(* add_EOS as regenerated from cfglm.py is the model's add_eos. *)
Theorem C20_code_add_eos_is_model : forall (S : SR) (s' s eos : nat) (G : grammar S),
  gen_add_eos S s' s eos G = add_eos s' s eos G.
Proof. intros; apply gen_add_eos_model. Qed.
Print Assumptions C20_code_add_eos_is_model.

(* String level: with the regenerated normalisation factor, every string's derivation sum from X -- at every height,
   finite or infinite language -- is the original one divided by Z X, and so is the Kleene iterate (total weight):
   the normalised grammar "assigns every string its original weight divided by the original total weight", and its
   total is one when Z is the total.  Any field; the side condition says that a symbol of total weight zero derives
   nothing (true for non-negative weights). *)
From GV.model Require Import Agenda.
From GV.proofs Require LnormStringsProofs.
Theorem C20_strings_proportional : forall (F : FR) (Z : sym -> F) (G : grammar F),
  (forall a, Z (T a) = s1) ->
  (forall Y, Z (N Y) = s0 -> forall h u, W G h Y u = s0) ->
  (forall Y, Z (N Y) = s0 -> forall h, bu_iter G h Y = s0) ->
  (forall h X xs, smul (W (lnorm (norm_factor F) Z G) h X xs) (Z (N X)) = W G h X xs) /\
  (forall h X xs, Z (N X) <> s0 -> W (lnorm (norm_factor F) Z G) h X xs = fdiv F (W G h X xs) (Z (N X))) /\
  (forall h X, Z (N X) <> s0 -> bu_iter (lnorm (norm_factor F) Z G) h X = fdiv F (bu_iter G h X) (Z (N X))).
Proof.
  intros F Z G HT HW HB.
  split; [exact (LnormStringsProofs.lnorm_W_proportional F Z G HT HW)|].
  split; [exact (LnormStringsProofs.lnorm_W_divided F Z G HT HW)|exact (LnormStringsProofs.lnorm_total_divided F Z G HT HB)].
Qed.
Print Assumptions C20_strings_proportional.
