(* Commutative semirings with Leibniz equality, packaged so that [ring] works
   over an abstract instance inside a section ([Add Ring] on [sth S]).
   Equality is Leibniz so that weights can be rewritten under the model's functions without
   setoid morphisms; the decidable test [seqb] is carried along because the models compare
   weights (zero entries of sparse charts, locally_normalize, the agenda's change test).
   Instances: bool, N, Qc. *)
From Coq Require Import List QArith Qcanon Lia.
Import ListNotations.

Record SR := mkSR {
  car :> Type;
  s0 : car; s1 : car;
  sadd : car -> car -> car;
  smul : car -> car -> car;
  sth : semi_ring_theory s0 s1 sadd smul (@eq car);
  seqb : car -> car -> bool;
  seqb_spec : forall a b, seqb a b = true <-> a = b
}.

Lemma seqb_reflect (S : SR) (a b : S) : reflect (a = b) (seqb S a b).
Proof. apply iff_reflect; symmetry; apply seqb_spec. Qed.

Lemma seqb_false_neq (S : SR) (a b : S) : a <> b -> seqb S a b = false.
Proof. intros H. destruct (seqb_reflect S a b); [contradiction|reflexivity]. Qed.

Arguments s0 {_}. Arguments s1 {_}.
Arguments sadd {_} _ _. Arguments smul {_} _ _.
Arguments seqb {_} _ _.

Declare Scope sr_scope.
Delimit Scope sr_scope with sr.
Notation "x + y" := (sadd x y) : sr_scope.
Notation "x * y" := (smul x y) : sr_scope.
Notation "0" := s0 : sr_scope.
Notation "1" := s1 : sr_scope.

(* the laws by name, for goals that are one of them, where [ring] would be out of proportion *)
Section Units.
Variable S : SR.
Local Open Scope sr_scope.
Lemma sadd_comm (a b : S) : a + b = b + a. Proof. apply (SRadd_comm (sth S)). Qed.
Lemma sadd_assoc (a b c : S) : a + (b + c) = (a + b) + c. Proof. apply (SRadd_assoc (sth S)). Qed.
Lemma smul_comm (a b : S) : a * b = b * a. Proof. apply (SRmul_comm (sth S)). Qed.
Lemma smul_assoc (a b c : S) : a * (b * c) = (a * b) * c. Proof. apply (SRmul_assoc (sth S)). Qed.
Lemma sdistr_l (a b c : S) : (a + b) * c = a * c + b * c. Proof. apply (SRdistr_l (sth S)). Qed.
Lemma sadd_0_l (a : S) : 0 + a = a. Proof. apply (SRadd_0_l (sth S)). Qed.
Lemma sadd_0_r (a : S) : a + 0 = a. Proof. rewrite sadd_comm. apply sadd_0_l. Qed.
Lemma smul_1_l (a : S) : 1 * a = a. Proof. apply (SRmul_1_l (sth S)). Qed.
Lemma smul_1_r (a : S) : a * 1 = a. Proof. rewrite smul_comm. apply smul_1_l. Qed.
Lemma smul_0_l (a : S) : 0 * a = 0. Proof. apply (SRmul_0_l (sth S)). Qed.
Lemma smul_0_r (a : S) : a * 0 = 0. Proof. rewrite smul_comm. apply smul_0_l. Qed.
Lemma smul_if_r (b : bool) (a x : S) : a * (if b then x else 0) = if b then a * x else 0.
Proof. destruct b; [reflexivity|apply smul_0_r]. Qed.
Lemma smul_if_l (b : bool) (x a : S) : (if b then x else 0) * a = if b then x * a else 0.
Proof. destruct b; [reflexivity|apply smul_0_l]. Qed.
End Units.

Lemma bool_srt : semi_ring_theory false true orb andb (@eq bool).
Proof. constructor; intros; repeat match goal with b : bool |- _ => destruct b end; reflexivity. Qed.
Lemma bool_eqb_spec : forall a b : bool, Bool.eqb a b = true <-> a = b.
Proof. intros a b; split; [apply eqb_prop|intros ->; apply eqb_reflx]. Qed.
Definition BoolSR : SR := mkSR bool false true orb andb bool_srt Bool.eqb bool_eqb_spec.

Lemma N_srt : semi_ring_theory 0%N 1%N N.add N.mul (@eq N).
Proof. constructor; intros; lia. Qed.
Definition NSR : SR := mkSR N 0%N 1%N N.add N.mul N_srt N.eqb N.eqb_eq.

Lemma Qc_srt : semi_ring_theory 0%Qc 1%Qc Qcplus Qcmult (@eq Qc).
Proof. constructor; intros; ring. Qed.
Definition Qc_eqb (a b : Qc) : bool := if Qc_eq_dec a b then true else false.
Lemma Qc_eqb_spec : forall a b, Qc_eqb a b = true <-> a = b.
Proof. intros a b; unfold Qc_eqb; destruct (Qc_eq_dec a b); split; congruence. Qed.
Definition QcSR : SR := mkSR Qc 0%Qc 1%Qc Qcplus Qcmult Qc_srt Qc_eqb Qc_eqb_spec.

(* rational literal helper used by generated case files *)
Definition mkq (n : Z) (d : positive) : Qc := Q2Qc (n # d).

Record FR := mkFR {
  fsr :> SR;
  fsub : fsr -> fsr -> fsr;
  fopp : fsr -> fsr;
  fdiv : fsr -> fsr -> fsr;
  finv : fsr -> fsr;
  fth : field_theory (@s0 fsr) (@s1 fsr) (@sadd fsr) (@smul fsr) fsub fopp fdiv finv (@eq fsr)
}.

Lemma Qc_ft : field_theory 0%Qc 1%Qc Qcplus Qcmult Qcminus Qcopp Qcdiv Qcinv (@eq Qc).
Proof. exact Qcft. Qed.
Definition QcFR : FR := mkFR QcSR Qcminus Qcopp Qcdiv Qcinv Qc_ft.

(* star semirings: star with a definedness predicate *)

Record StarSR := mkStarSR {
  ssr :> SR;
  sstar : ssr -> ssr;
  sdef : ssr -> Prop;
  star_unfold_l : forall x, sdef x -> sstar x = sadd s1 (smul x (sstar x));
  star_unfold_r : forall x, sdef x -> sstar x = sadd s1 (smul (sstar x) x)
}.

Definition Qc_star (x : Qc) : Qc := (1 / (1 - x))%Qc.
Lemma Qc_star_l : forall x : Qc, x <> 1%Qc -> Qc_star x = (1 + x * Qc_star x)%Qc.
Proof. intros x H; unfold Qc_star. field. intro E. apply H.
  assert (E' : (1 - x = 0)%Qc) by exact E.
  assert (Hx : x = (1 - (1 - x))%Qc) by ring. rewrite Hx, E'. ring. Qed.
Lemma Qc_star_r : forall x : Qc, x <> 1%Qc -> Qc_star x = (1 + Qc_star x * x)%Qc.
Proof. intros x H. rewrite (Qc_star_l x H) at 1. ring. Qed.
Definition QcStar : StarSR := mkStarSR QcSR Qc_star (fun x => x <> 1%Qc) Qc_star_l Qc_star_r.

Definition bool_star (x : bool) := true.
Lemma bool_star_l : forall x : bool, True -> bool_star x = orb true (andb x (bool_star x)).
Proof. reflexivity. Qed.
Lemma bool_star_r : forall x : bool, True -> bool_star x = orb true (andb (bool_star x) x).
Proof. reflexivity. Qed.
Definition BoolStar : StarSR := mkStarSR BoolSR bool_star (fun _ => True) bool_star_l bool_star_r.
