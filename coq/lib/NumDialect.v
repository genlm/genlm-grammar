(* Vocabulary used by the code that tools/translate_semiring.py emits
   (Gen_Semiring.v).  Two dialects with the same names: RD over R (law proofs)
   and QD over Qc (exact differential execution against the Python classes).
   [ext] models a float score that may be -inf (np.inf with a minus sign);
   +inf and nan are not representable: operations that would produce them
   return NegInf and are outside every theorem's stated domain. *)
From Coq Require Import Reals QArith Qcanon Bool.

Inductive ext (K : Type) := NegInf | Fin (x : K).
Arguments NegInf {K}. Arguments Fin {K} x.

(* Entropy values carry a tag modelling object identity with the two class
   constants ([x is self.zero], [x is self.one]). *)
Inductive etag := TagZero | TagOne | TagFresh.
Definition is_zero_tag (t : etag) := match t with TagZero => true | _ => false end.
Definition is_one_tag (t : etag) := match t with TagOne => true | _ => false end.

Module RD.
  Local Open Scope R_scope.
  Definition K := R.
  Definition kmax (x y : R) : R := Rmax x y.
  Definition kgtb (x y : R) : bool := if Rlt_dec y x then true else false.
  Definition keqb (x y : R) : bool := if Req_EM_T x y then true else false.
  Definition kexp (x : R) : R := exp x.
  Definition klog (x : R) : R := ln x.
  Definition kposb (x : R) : bool := if Rlt_dec 0 x then true else false.
    Definition eadd (a b : ext R) : ext R := match a, b with Fin x, Fin y => Fin (x + y) | _, _ => NegInf end.
  Definition esub (a b : ext R) : ext R := match a, b with Fin x, Fin y => Fin (x - y) | _, _ => NegInf end.
  Definition eopp (a : ext R) : ext R := match a with Fin x => Fin (- x) | NegInf => NegInf end.
  Definition emax (a b : ext R) : ext R := match a, b with Fin x, Fin y => Fin (Rmax x y) | NegInf, y => y | x, NegInf => x end.
  Definition egtb (a b : ext R) : bool := match a, b with Fin x, Fin y => kgtb x y | Fin _, NegInf => true | NegInf, _ => false end.
  Definition eeqb (a b : ext R) : bool := match a, b with Fin x, Fin y => keqb x y | NegInf, NegInf => true | _, _ => false end.
  Definition eexp (a : ext R) : ext R := match a with Fin x => Fin (exp x) | NegInf => Fin 0 end.
  Definition elog (a : ext R) : ext R := match a with Fin x => if kposb x then Fin (ln x) else NegInf | NegInf => NegInf end.
  Definition elit (x : R) : ext R := Fin x.
End RD.

Module QD.
  Local Open Scope Qc_scope.
  Definition K := Qc.
  Definition kmax (x y : Qc) : Qc := if Qclt_le_dec x y then y else x.
  Definition kgtb (x y : Qc) : bool := if Qclt_le_dec y x then true else false.
  Definition keqb (x y : Qc) : bool := if Qc_eq_dec x y then true else false.
  Definition eadd (a b : ext Qc) : ext Qc := match a, b with Fin x, Fin y => Fin (x + y) | _, _ => NegInf end.
  Definition esub (a b : ext Qc) : ext Qc := match a, b with Fin x, Fin y => Fin (x - y) | _, _ => NegInf end.
  Definition eopp (a : ext Qc) : ext Qc := match a with Fin x => Fin (- x) | NegInf => NegInf end.
  Definition emax (a b : ext Qc) : ext Qc := match a, b with Fin x, Fin y => Fin (kmax x y) | NegInf, y => y | x, NegInf => x end.
  Definition egtb (a b : ext Qc) : bool := match a, b with Fin x, Fin y => kgtb x y | Fin _, NegInf => true | NegInf, _ => false end.
  Definition eeqb (a b : ext Qc) : bool := match a, b with Fin x, Fin y => keqb x y | NegInf, NegInf => true | _, _ => false end.
  Definition elit (x : Qc) : ext Qc := Fin x.
End QD.
