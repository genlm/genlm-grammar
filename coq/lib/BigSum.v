(* Finite sums and products over an abstract commutative semiring. *)
From Coq Require Import List Arith Bool Field Permutation.
From GV.lib Require Import Semiring.
Import ListNotations.
Local Open Scope sr_scope.

Section BigSum.
Variable S : SR.
Add Ring SRing : (sth S).

Fixpoint ssum (l : list S) : S := match l with [] => 0 | x :: t => x + ssum t end.
Fixpoint sprod (l : list S) : S := match l with [] => 1 | x :: t => x * sprod t end.

Definition bsum {A} (l : list A) (f : A -> S) : S := ssum (map f l).

Lemma ssum_app l1 l2 : ssum (l1 ++ l2) = ssum l1 + ssum l2.
Proof.
  induction l1 as [|x t IH]; simpl; [symmetry; apply sadd_0_l|].
  rewrite IH. apply (sadd_assoc S).
Qed.

Lemma sprod_app l1 l2 : sprod (l1 ++ l2) = sprod l1 * sprod l2.
Proof.
  induction l1 as [|x t IH]; simpl; [symmetry; apply smul_1_l|].
  rewrite IH. apply (smul_assoc S).
Qed.

Lemma ssum_perm l1 l2 : Permutation l1 l2 -> ssum l1 = ssum l2.
Proof. induction 1; simpl; try congruence; ring. Qed.

Lemma sprod_perm l1 l2 : Permutation l1 l2 -> sprod l1 = sprod l2.
Proof. induction 1; simpl; try congruence; ring. Qed.

Lemma bsum_nil {A} (f : A -> S) : bsum [] f = 0. Proof. reflexivity. Qed.
Lemma bsum_cons {A} (a : A) l (f : A -> S) : bsum (a :: l) f = f a + bsum l f. Proof. reflexivity. Qed.
Lemma bsum_app {A} (l1 l2 : list A) (f : A -> S) : bsum (l1 ++ l2) f = bsum l1 f + bsum l2 f.
Proof. unfold bsum; rewrite map_app; apply ssum_app. Qed.

Lemma bsum_ext {A} (l : list A) (f g : A -> S) : (forall a, In a l -> f a = g a) -> bsum l f = bsum l g.
Proof. unfold bsum; induction l as [|a t IH]; simpl; intros H; [reflexivity|].
  rewrite H by (left; reflexivity). rewrite IH; [reflexivity|]. intros; apply H; right; assumption. Qed.

Lemma bsum_zero {A} (l : list A) (f : A -> S) : (forall a, In a l -> f a = 0) -> bsum l f = 0.
Proof. unfold bsum; induction l as [|a t IH]; simpl; intros H; [reflexivity|].
  rewrite H by (left; reflexivity). rewrite IH; [apply sadd_0_l|]. intros; apply H; right; assumption. Qed.

Lemma bsum_add {A} (l : list A) (f g : A -> S) : bsum l (fun a => f a + g a) = bsum l f + bsum l g.
Proof. unfold bsum; induction l as [|a t IH]; simpl; [ring|rewrite IH; ring]. Qed.

Lemma bsum_mul_l {A} (l : list A) (f : A -> S) c : bsum l (fun a => c * f a) = c * bsum l f.
Proof. unfold bsum; induction l as [|a t IH]; simpl; [ring|rewrite IH; ring]. Qed.

Lemma bsum_mul_r {A} (l : list A) (f : A -> S) c : bsum l (fun a => f a * c) = bsum l f * c.
Proof. unfold bsum; induction l as [|a t IH]; simpl; [ring|rewrite IH; ring]. Qed.

Lemma bsum_perm {A} (l1 l2 : list A) (f : A -> S) : Permutation l1 l2 -> bsum l1 f = bsum l2 f.
Proof. intros H; unfold bsum; apply ssum_perm, Permutation_map, H. Qed.

Lemma bsum_map {A B} (l : list A) (g : A -> B) (f : B -> S) : bsum (map g l) f = bsum l (fun a => f (g a)).
Proof. unfold bsum; rewrite map_map; reflexivity. Qed.

Lemma bsum_flat_map {A B} (l : list A) (g : A -> list B) (f : B -> S) :
  bsum (flat_map g l) f = bsum l (fun a => bsum (g a) f).
Proof. induction l as [|a t IH]; simpl; [reflexivity|]. rewrite bsum_app, bsum_cons, IH; reflexivity. Qed.

Lemma bsum_swap {A B} (la : list A) (lb : list B) (f : A -> B -> S) :
  bsum la (fun a => bsum lb (fun b => f a b)) = bsum lb (fun b => bsum la (fun a => f a b)).
Proof. induction la as [|a t IH]; simpl.
  - rewrite bsum_nil. symmetry; apply bsum_zero; reflexivity.
  - rewrite bsum_cons, IH. rewrite <- bsum_add. apply bsum_ext; intros; rewrite bsum_cons; reflexivity. Qed.

Lemma bsum_swap3 {A B C} (la : list A) (lb : list B) (lc : list C) (f : A -> B -> C -> S) :
  bsum la (fun a => bsum lb (fun b => bsum lc (fun c => f a b c))) =
  bsum lc (fun c => bsum la (fun a => bsum lb (fun b => f a b c))).
Proof.
  transitivity (bsum la (fun a => bsum lc (fun c => bsum lb (fun b => f a b c)))).
  - apply bsum_ext; intros a _. apply (bsum_swap lb lc (fun b c => f a b c)).
  - apply (bsum_swap la lc (fun a c => bsum lb (fun b => f a b c))).
Qed.

Lemma bsum_filter {A} (l : list A) (p : A -> bool) (f : A -> S) :
  bsum (filter p l) f = bsum l (fun a => if p a then f a else 0).
Proof. induction l as [|a t IH]; simpl; [reflexivity|]. rewrite bsum_cons.
  destruct (p a); [rewrite bsum_cons, IH; reflexivity|rewrite IH; symmetry; apply sadd_0_l]. Qed.

(* a sum with a single non-zero term *)
Lemma bsum_delta {A} (eqb : A -> A -> bool) (eqb_ok : forall a b, eqb a b = true <-> a = b)
      (l : list A) (x : A) (f : A -> S) :
  NoDup l -> bsum l (fun a => if eqb a x then f a else 0) = if existsb (fun a => eqb a x) l then f x else 0.
Proof. induction 1 as [|a t Hn Hd IH]; simpl; [reflexivity|]. rewrite bsum_cons, IH.
  destruct (eqb a x) eqn:E; simpl.
  - apply eqb_ok in E; subst a. destruct (existsb _ t) eqn:E2; [|apply sadd_0_r].
    exfalso; apply Hn. apply existsb_exists in E2. destruct E2 as [y [Hy Ey]]. apply eqb_ok in Ey; subst; assumption.
  - apply sadd_0_l. Qed.

(* ... with the test written  k =? a  over a list of naturals *)
Lemma bsum_delta_nat (l : list nat) (k : nat) (f : nat -> S) : NoDup l ->
  bsum l (fun a => if Nat.eqb k a then f a else 0) = if existsb (Nat.eqb k) l then f k else 0.
Proof.
  apply (bsum_delta (fun a x => Nat.eqb x a)).
  intros a b. split; [intros E; symmetry; apply Nat.eqb_eq, E|intros ->; apply Nat.eqb_refl].
Qed.

(* all terms but the one at x vanish *)
Lemma bsum_single {A} (l : list A) (x : A) (g : A -> S) :
  NoDup l -> In x l -> (forall a, In a l -> a <> x -> g a = 0) -> bsum l g = g x.
Proof.
  induction 1 as [|a t Hn Hd IH]; intros Hin Hz; [destruct Hin|]. rewrite bsum_cons.
  destruct Hin as [->|Hin].
  - rewrite bsum_zero; [apply sadd_0_r|]. intros b Hb. apply Hz; [right; exact Hb|]. intros ->; contradiction.
  - rewrite (Hz a); [|left; reflexivity|intros ->; contradiction].
    rewrite IH; [apply sadd_0_l|exact Hin|]. intros b Hb; apply Hz; right; exact Hb.
Qed.

Lemma bsum_pick (l : list nat) (x : nat) (f : nat -> S) :
  NoDup l -> In x l -> bsum l (fun a => if Nat.eqb a x then f a else 0) = f x.
Proof.
  intros Hnd Hx. rewrite (bsum_single l x) by (try assumption; intros a _ Ha; apply Nat.eqb_neq in Ha; rewrite Ha; reflexivity).
  rewrite Nat.eqb_refl; reflexivity.
Qed.

Lemma bsum_pick_absent (l : list nat) (x : nat) (F : nat -> S) :
  ~ In x l -> bsum l (fun a => if Nat.eqb a x then F a else 0) = 0.
Proof.
  intros Hx. apply bsum_zero. intros a Ha.
  destruct (Nat.eqb_spec a x) as [E|E]; [subst a; contradiction|reflexivity].
Qed.

(* a row  e_Y + M  applied to a vector *)
Lemma bsum_unit_row (l : list nat) (Y : nat) (M v : nat -> S) :
  NoDup l -> In Y l ->
  bsum l (fun X => ((if Nat.eqb Y X then 1 else 0) + M X) * v X) = v Y + bsum l (fun X => M X * v X).
Proof.
  intros Hnd HY. rewrite <- (bsum_pick l Y v Hnd HY), <- bsum_add.
  apply bsum_ext. intros X _. rewrite (Nat.eqb_sym Y X). destruct (Nat.eqb X Y); ring.
Qed.

(* row Y of  (I + a B) v = v + a (B v) *)
Lemma bsum_unit_plus (l : list nat) (Y : nat) (M a v : nat -> S) (B : nat -> nat -> S) :
  NoDup l -> In Y l ->
  (forall X, In X l -> M X = (if Nat.eqb Y X then 1 else 0) + bsum l (fun Z => a Z * B Z X)) ->
  bsum l (fun X => M X * v X) = v Y + bsum l (fun Z => a Z * bsum l (fun X => B Z X * v X)).
Proof.
  intros Hnd HY HM.
  rewrite (bsum_ext l _ (fun X => ((if Nat.eqb Y X then 1 else 0) + bsum l (fun Z => a Z * B Z X)) * v X))
    by (intros X HX; rewrite (HM X HX); reflexivity).
  rewrite (bsum_unit_row l Y _ v Hnd HY). f_equal.
  transitivity (bsum l (fun X => bsum l (fun Z => a Z * (B Z X * v X)))).
  - apply bsum_ext. intros X _. rewrite <- bsum_mul_r. apply bsum_ext. intros Z _.
    symmetry. apply (smul_assoc S).
  - rewrite bsum_swap. apply bsum_ext. intros Z _. apply bsum_mul_l.
Qed.

(* a sum over the items of l, regrouped by a key that ranges over st *)
Lemma bsum_by_key {X} (l : list X) (st : list nat) (key : X -> nat) (c : X -> bool)
      (w : X -> S) (h : nat -> S) :
  NoDup st -> (forall x, In x l -> In (key x) st) ->
  bsum st (fun j => bsum l (fun x => if c x && Nat.eqb (key x) j then w x else 0) * h j)
  = bsum l (fun x => if c x then w x * h (key x) else 0).
Proof.
  intros Hnd Hkey.
  rewrite (bsum_ext st _ (fun j => bsum l (fun x =>
             (if c x && Nat.eqb (key x) j then w x else 0) * h j)))
    by (intros; symmetry; apply bsum_mul_r).
  rewrite bsum_swap. apply bsum_ext; intros x Hx.
  destruct (c x); cbn [andb].
  - rewrite (bsum_single st (key x)), Nat.eqb_refl; auto.
    intros j _ Hj. apply Nat.eqb_neq in Hj. rewrite Nat.eqb_sym, Hj. apply smul_0_l.
  - apply bsum_zero; intros; apply smul_0_l.
Qed.

Lemma bsum_seq_S (f : nat -> S) (n : nat) :
  bsum (seq 0 (Datatypes.S n)) f = bsum (seq 0 n) f + f n.
Proof. rewrite seq_S, bsum_app, bsum_cons, bsum_nil, sadd_0_r. reflexivity. Qed.

Lemma bsum_const_zero {A} (l : list A) : bsum l (fun _ => 0) = (0 : S).
Proof. apply bsum_zero; reflexivity. Qed.

(* product of sums distributes *)
Lemma bsum_bsum_mul {A B} (la : list A) (lb : list B) (f : A -> S) (g : B -> S) :
  bsum la f * bsum lb g = bsum la (fun a => bsum lb (fun b => f a * g b)).
Proof. induction la as [|a t IH]; simpl.
  - rewrite !bsum_nil. apply smul_0_l.
  - rewrite !bsum_cons, <- IH, bsum_mul_l. apply (sdistr_l S). Qed.

(* a sum over ls of products of two conditional sums, regrouped by the pair of terms *)
Lemma bsum_if_mul {A B C} (ls : list C) (la : list A) (lb : list B)
      (ca : C -> A -> bool) (cb : C -> B -> bool) (wa : A -> S) (wb : B -> S) :
  bsum ls (fun s => bsum la (fun a => if ca s a then wa a else 0)
                    * bsum lb (fun b => if cb s b then wb b else 0))
  = bsum la (fun a => bsum lb (fun b =>
      bsum ls (fun s => if ca s a then (if cb s b then wa a * wb b else 0) else 0))).
Proof.
  transitivity (bsum ls (fun s => bsum la (fun a => bsum lb (fun b =>
     (if ca s a then wa a else 0) * (if cb s b then wb b else 0))))).
  { apply bsum_ext; intros s _. apply bsum_bsum_mul. }
  rewrite bsum_swap. apply bsum_ext; intros a _. rewrite bsum_swap. apply bsum_ext; intros b _.
  apply bsum_ext; intros s _. destruct (ca s a), (cb s b); ring.
Qed.

End BigSum.

Arguments ssum {S} l.
Arguments sprod {S} l.
Arguments bsum {S A} l f.

Lemma bool_bsum_true {A} (l : list A) (f : A -> BoolSR) :
  bsum l f = true <-> exists x, In x l /\ f x = true.
Proof.
  induction l as [|a t IH].
  - split; [discriminate|intros [x [[] _]]].
  - rewrite bsum_cons. change (orb (f a) (bsum t f) = true <-> exists x, In x (a :: t) /\ f x = true).
    rewrite orb_true_iff, IH. split.
    + intros [H|[x [Hx Hf]]]; [exists a; split; [left; reflexivity|exact H]|exists x; split; [right; exact Hx|exact Hf]].
    + intros [x [[E|Hx] Hf]]; [left; subst x; exact Hf|right; exists x; split; assumption].
Qed.

(* division by a constant is multiplication by its inverse (the hypothesis c <> 0 is the one
   the callers have at hand; the proof does not use it) *)
Lemma bsum_fdiv (F : FR) {A} (l : list A) (f : A -> F) (c : F) :
  c <> s0 -> bsum l (fun a => fdiv F (f a) c) = fdiv F (bsum l f) c.
Proof.
  intros _. rewrite (bsum_ext F l _ (fun a => smul (f a) (finv F c))) by (intros; apply (Fdiv_def (fth F))).
  rewrite bsum_mul_r. symmetry. apply (Fdiv_def (fth F)).
Qed.
