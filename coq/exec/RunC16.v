(* Equality tests with which the generated C16 case files compare what the regenerated semiring
   operations compute over the rationals (module QQ of Gen_Semiring.v) with what the implementation
   returned: Bool.eqb for Boolean, qeq for Real, Float and MaxTimes (one rational), xeq for MaxPlus
   (a rational or -inf), peq for Expectation (a pair of rationals), teq for Entropy.  teq compares
   the two scores and deliberately ignores the identity tag of the model value: Semiring.__eq__
   compares scores only, and the implementation's answer carries no tag.
   The list notations are exported for the case files, which import this file last. *)
From Coq Require Import QArith Qcanon Bool List.
From GV.lib Require Import Semiring NumDialect.
From GV.gen Require Import Gen_Semiring.
Export ListNotations.
Definition qeq (a b : Qc) : bool := Qc_eqb a b.
Definition peq (a b : Qc * Qc) : bool := qeq (fst a) (fst b) && qeq (snd a) (snd b).
Definition teq (a : Qc * Qc * etag) (b : Qc * Qc) : bool := peq (fst a) b.
Definition xeq (a b : ext Qc) : bool := match a, b with NegInf, NegInf => true | Fin x, Fin y => qeq x y | _, _ => false end.
