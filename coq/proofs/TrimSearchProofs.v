(* WFSA.trim = _trim(accessible() & co_accessible()) with its two graph searches (wfsa/base.py; model/TrimSearch.v).
   The computed sets are exactly the states reachable from an initial state, resp. reaching a final state, along
   arcs of the machine ([path_to]).  So an arc or an initial entry that leaves the kept set [active] lands in a
   state with no path to a final state, which is dead; that is the hypothesis of TrimWProofs.trim_weight, and the
   modelled trim preserves the weight of every string, unconditionally.
   The code searches depth-first with a stack, the model by S |arcs| sweeps of the arc list; only the set matters. *)
From Coq Require Import List Arith BinNat Bool Lia.
From GV.lib Require Import Semiring BigSum.
From GV.model Require Import Wfsa TrimW TrimSearch.
From GV.proofs Require Import Closure TrimWProofs.
Import ListNotations.
Local Open Scope sr_scope.

Lemma inb_spec (x : nat) (l : list nat) : inb x l = true <-> In x l.
Proof. apply mem_spec. Qed.

Lemma inb_false (x : nat) (l : list nat) : inb x l = false <-> ~ In x l.
Proof. apply mem_false. Qed.

Lemma inb_filter (f : nat -> bool) (A : list nat) (q : nat) : inb q (filter f A) = inb q A && f q.
Proof. apply Bool.eq_iff_eq_true. rewrite andb_true_iff, !inb_spec, filter_In. reflexivity. Qed.

Section TrimSearchProofs.
Variable S : SR.
Add Ring SRing : (sth S).

Inductive path_to (m : wfsa S) : nat -> nat -> Prop :=   (* q reaches q' along arcs of m *)
| pt_refl : forall q, path_to m q q
| pt_step : forall q ar q', In ar (warcs m) -> asrc ar = q -> path_to m (adst ar) q' -> path_to m q q'.

Lemma path_to_snoc (m : wfsa S) a b : path_to m a b ->
  forall ar, In ar (warcs m) -> asrc ar = b -> path_to m a (adst ar).
Proof.
  induction 1 as [q|q ar0 q' Har0 Hs0 _ IH]; intros ar Har Hs.
  - apply (pt_step m q ar (adst ar) Har Hs). apply pt_refl.
  - apply (pt_step m q ar0 (adst ar) Har0 Hs0). apply IH; assumption.
Qed.

Lemma path_to_flip (m1 m2 : wfsa S) :
  (forall ar, In ar (warcs m1) -> exists ar', In ar' (warcs m2) /\ asrc ar' = adst ar /\ adst ar' = asrc ar) ->
  forall a b, path_to m1 a b -> path_to m2 b a.
Proof.
  intros Hf a b. induction 1 as [q|q ar q' Har Hs _ IH].
  - apply pt_refl.
  - destruct (Hf ar Har) as [ar' [Har' [Es Ed]]].
    rewrite <- Hs, <- Ed. rewrite <- Es in IH. apply (path_to_snoc m2 q' (asrc ar') IH ar' Har' eq_refl).
Qed.

Lemma path_to_reverse (m : wfsa S) a b : path_to (wreverse m) a b <-> path_to m b a.
Proof.
  split; apply path_to_flip.
  - intros ar Har. simpl in Har. apply in_map_iff in Har. destruct Har as [ar0 [E Har0]].
    exists ar0. split; [assumption|]. subst ar. split; reflexivity.
  - intros ar Har. exists (adst ar, albl ar, asrc ar, awt ar). split; [|split; reflexivity].
    simpl. apply in_map_iff. exists ar. split; [reflexivity|assumption].
Qed.

Definition aclosed (m : wfsa S) (R : list nat) : Prop :=
  forall ar, In ar (warcs m) -> In (asrc ar) R -> In (adst ar) R.

Lemma aclosed_path (m : wfsa S) R a b : aclosed m R -> path_to m a b -> In a R -> In b R.
Proof.
  intros Hc Hp. induction Hp as [q|q ar q' Har <- _ IH]; intros Hq; [exact Hq|]. exact (IH (Hc ar Har Hq)).
Qed.

(* the search as a saturation: an arc with a reached source asks for its target *)
Definition acc_guard (R : list nat) (ar : arc S) : bool := inb (asrc ar) R.
Definition acc_tgt (ar : arc S) : list nat := [adst ar].

Lemma acc_iter_sat (m : wfsa S) : forall n R, acc_iter m n R = sat_iter acc_guard acc_tgt (warcs m) n R.
Proof. apply (sat_iter_unique _ _ _ (acc_pass m)); reflexivity. Qed.

(* the de-duplicated initial states *)
Definition init0 (m : wfsa S) : list nat := fold_left add1 (map fst (winit m)) [].

Lemma accessible_sat (m : wfsa S) :
  accessible m = sat_iter acc_guard acc_tgt (warcs m) (Datatypes.S (length (warcs m))) (init0 m).
Proof. apply acc_iter_sat. Qed.

(* the set stays inside the initial states and the arc targets *)
Lemma acc_bound (m : wfsa S) : sat_bound acc_guard acc_tgt (warcs m) (init0 m ++ map adst (warcs m)).
Proof. intros R ar Har _ _ y [<-|[]]. apply in_or_app. right. apply in_map, Har. Qed.

Lemma accessible_aclosed (m : wfsa S) : aclosed m (accessible m).
Proof.
  intros ar Har Hs. rewrite accessible_sat in *.
  apply (sat_iter_closed _ _ _ _ (acc_bound m) _ (init0 m)) with (a := ar);
    [apply adds_NoDup, NoDup_nil|apply incl_appl, incl_refl| |exact Har|apply inb_spec, Hs|left; reflexivity].
  rewrite app_length, map_length. simpl. lia.
Qed.

Lemma accessible_init (m : wfsa S) e : In e (winit m) -> In (fst e) (accessible m).
Proof.
  intros He. rewrite accessible_sat. apply (extends_incl _ _ (sat_iter_extends _ _ _ _ _)).
  apply adds_In. right. apply in_map, He.
Qed.

Theorem accessible_closed : forall (m : wfsa S),
  closed_succ S m (accessible m) /\ (forall e, In e (winit m) -> inb (fst e) (accessible m) = true).
Proof.
  intros m. split.
  - intros ar Har Hs. apply inb_spec. apply inb_spec in Hs. apply (accessible_aclosed m ar Har Hs).
  - intros e He. apply inb_spec. apply accessible_init; assumption.
Qed.

Theorem accessible_spec : forall (m : wfsa S) (q : nat),
  In q (accessible m) <-> exists e, In e (winit m) /\ path_to m (fst e) q.
Proof.
  intros m q. split.
  - revert q. rewrite accessible_sat. apply sat_iter_sound.
    + intros R ar q Har HR Hs [<-|[]]. destruct (HR _ (proj1 (inb_spec _ _) Hs)) as [e [He Hp]].
      exists e. split; [exact He|]. apply (path_to_snoc m (fst e) (asrc ar) Hp ar Har eq_refl).
    + intros q Hq. apply adds_In in Hq. destruct Hq as [[]|Hq].
      apply in_map_iff in Hq. destruct Hq as [e [<- He]]. exists e. split; [exact He|apply pt_refl].
  - intros [e [He Hp]]. exact (aclosed_path m _ _ _ (accessible_aclosed m) Hp (accessible_init m e He)).
Qed.

Theorem coaccessible_spec : forall (m : wfsa S) (q : nat),
  In q (coaccessible m) <-> exists e, In e (wfinal m) /\ path_to m q (fst e).
Proof.
  intros m q. unfold coaccessible. rewrite accessible_spec. simpl winit.
  split; intros [e [He Hp]]; exists e; (split; [assumption|]); apply path_to_reverse; assumption.
Qed.

Lemma no_path_dead : forall (m : wfsa S) (q : nat),
  (forall e, In e (wfinal m) -> ~ path_to m q (fst e)) -> dead S m q.
Proof.
  intros m q Hq xs. revert q Hq. induction xs as [|a xs IH]; intros q Hq.
  - rewrite pw_nil. unfold wget. apply bsum_zero. intros e He.
    destruct (Nat.eqb q (fst e)) eqn:E; [|reflexivity].
    apply Nat.eqb_eq in E. exfalso. apply (Hq e He). rewrite <- E. apply pt_refl.
  - rewrite pw_cons. apply bsum_zero. intros ar Har.
    destruct (Nat.eqb (asrc ar) q) eqn:E; [|reflexivity].
    apply Nat.eqb_eq in E. cbn [andb].
    rewrite (IH (adst ar)).
    + destruct (lbl_eqb (albl ar) a); ring.
    + intros e He Hp. apply (Hq e He). apply (pt_step m q ar (fst e) Har E Hp).
Qed.

Theorem not_coaccessible_dead : forall (m : wfsa S) (q : nat),
  inb q (coaccessible m) = false -> dead S m q.
Proof.
  intros m q Hq. apply no_path_dead. intros e He Hp.
  apply inb_false in Hq. apply Hq. apply coaccessible_spec. exists e. split; assumption.
Qed.

(* an arc or an initial entry that leaves [active] lands in an accessible state that is not co-accessible *)
Theorem trim_model_weight : forall (m : wfsa S) (xs : list nat), weight (trim_model m) xs = weight m xs.
Proof.
  intros m. destruct (accessible_closed m) as [Hc Hi]. unfold trim_model, active. apply trim_weight.
  - intros ar Har Hs Hd. rewrite inb_filter in Hs, Hd. apply andb_true_iff in Hs.
    rewrite (Hc ar Har (proj1 Hs)) in Hd. apply not_coaccessible_dead, Hd.
  - intros e He Hk. rewrite inb_filter, (Hi e He) in Hk. apply not_coaccessible_dead, Hk.
Qed.

Theorem trim_model_states_useful : forall (m : wfsa S) (q : nat), In q (active m) ->
  (exists e, In e (winit m) /\ path_to m (fst e) q) /\ (exists e, In e (wfinal m) /\ path_to m q (fst e)).
Proof.
  intros m q Hq. unfold active in Hq. apply filter_In in Hq. destruct Hq as [Ha Hc].
  split; [apply accessible_spec; assumption|]. apply coaccessible_spec. apply inb_spec; assumption.
Qed.

End TrimSearchProofs.
Arguments path_to {S} m _ _. Arguments aclosed {S} m R.

(* two lists of states denote the same set (what the comparison of the correspondence run decides) *)
Theorem same_states_spec : forall (a b : list nat), same_states a b = true <-> (forall x, In x a <-> In x b).
Proof.
  intros a b. unfold same_states. rewrite andb_true_iff, !forallb_forall. split.
  - intros [H1 H2] x. split; intros Hx; apply inb_spec; [apply H1|apply H2]; exact Hx.
  - intros H. split; intros x Hx; apply inb_spec, H, Hx.
Qed.

Print Assumptions accessible_spec.
Print Assumptions coaccessible_spec.
Print Assumptions accessible_closed.
Print Assumptions not_coaccessible_dead.
Print Assumptions trim_model_weight.
Print Assumptions trim_model_states_useful.
Print Assumptions same_states_spec.

(* init 0, final 2;  0 -5-> 1 (2), 1 -6-> 2 (3), 1 -7-> 3 (1) [3 is a dead end], 4 -5-> 2 (1) [4 is unreachable] *)
Definition ts_ex : wfsa NSR :=
  @mkW NSR [(O, 1%N)] [(2%nat, 1%N)]
      [ (O, Some 5%nat, 1%nat, 2%N); (1%nat, Some 6%nat, 2%nat, 3%N);
        (1%nat, Some 7%nat, 3%nat, 1%N); (4%nat, Some 5%nat, 2%nat, 1%N) ].

Example ts_ex_accessible : accessible ts_ex = [3%nat; 2%nat; 1%nat; O].
Proof. vm_compute. reflexivity. Qed.
Example ts_ex_coaccessible : coaccessible ts_ex = [O; 4%nat; 1%nat; 2%nat].
Proof. vm_compute. reflexivity. Qed.
Example ts_ex_active : active ts_ex = [2%nat; 1%nat; O].
Proof. vm_compute. reflexivity. Qed.
Example ts_ex_weight : weight (trim_model ts_ex) [5%nat; 6%nat] = 6%N /\ weight ts_ex [5%nat; 6%nat] = 6%N.
Proof. vm_compute. split; reflexivity. Qed.
Example ts_ex_arcs : length (warcs (trim_model ts_ex)) = 2%nat.
Proof. vm_compute. reflexivity. Qed.

Print Assumptions ts_ex_accessible.
Print Assumptions ts_ex_active.
Print Assumptions ts_ex_weight.
Print Assumptions ts_ex_arcs.
