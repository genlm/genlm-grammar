(* End-to-end reading of the next-token mask of a Boolean grammar language model.  The
   model works on the EOS-wrapped grammar (new start symbol s' with the rule s' -> s eos):
   its strings are exactly the strings of the grammar followed by eos; a token t <> eos is
   offered after the context ctx exactly when ctx . t can be completed to a string of the
   grammar; eos is offered exactly when ctx is itself a string of the grammar. *)
From Coq Require Import List Arith Bool.
From GV.lib Require Import Semiring BigSum.
From GV.model Require Import Cfg Norm Prefix.
From GV.proofs Require Import CfgTrees TotalStringsProofs NormProofs MaskStringsProofs.
Import ListNotations.

(* a prefix ending in t <> e of a string ending in e lies inside the part before e *)
Lemma prefix_snoc_inside : forall (l p rest : list nat) (e t : nat),
  l ++ [e] = (p ++ [t]) ++ rest -> t <> e -> exists rest', l = p ++ t :: rest'.
Proof.
  intros l p rest e t H Hne. destruct rest as [|x rest0] using rev_ind.
  - rewrite app_nil_r in H. apply app_inj_tail in H. destruct H as [_ E].
    exfalso. apply Hne. symmetry. exact E.
  - clear IHrest0. rewrite app_assoc in H. apply app_inj_tail in H. destruct H as [E _].
    exists rest0. rewrite E, <- app_assoc. reflexivity.
Qed.

(* the first eos of xs ++ [eos] is the last symbol when xs has no eos *)
Lemma eos_first : forall (xs ctx rest : list nat) (eos : nat),
  xs ++ [eos] = ctx ++ eos :: rest -> ~ In eos xs -> xs = ctx /\ rest = [].
Proof.
  induction xs as [|x xs IH]; intros ctx rest eos H Hno.
  - destruct ctx as [|c ctx]; simpl in H.
    + injection H as E. split; [reflexivity|symmetry; exact E].
    + injection H as _ E. exfalso. exact (app_cons_not_nil ctx rest eos E).
  - destruct ctx as [|c ctx]; simpl in H.
    + injection H as E _. exfalso. apply Hno. left. exact E.
    + injection H as E1 E2.
      destruct (IH ctx rest eos E2) as [E3 E4].
      * intros Hin. apply Hno. right. exact Hin.
      * subst. split; reflexivity.
Qed.

Theorem eos_language : forall (G : grammar BoolSR) (s' s eos : nat) (ys : list nat),
  (forall r, In r G -> rhead r <> s') ->
  (forall r, In r G -> ~ In (N s') (rbody r)) ->
  (in_language (add_eos s' s eos G) s' ys <->
   exists xs, ys = xs ++ [eos] /\ in_language G s xs).
Proof.
  intros G s' s eos ys Hh Hb. unfold in_language. split.
  - intros [h H]. destruct h as [|h]; [discriminate H|].
    rewrite (add_eos_W_new BoolSR G s' s eos Hh Hb) in H.
    apply bool_bsum_true in H. destruct H as [p [Hin Hp]].
    apply andb_true_iff in Hp. destruct Hp as [Hw He].
    apply splits_app in Hin.
    destruct (snd p) as [|e [|c l]]; try discriminate He.
    destruct (Nat.eqb eos e) eqn:E; [|discriminate He].
    apply Nat.eqb_eq in E. subst e.
    exists (fst p). split; [symmetry; exact Hin|exists h; exact Hw].
  - intros [xs [-> [h H]]]. exists (S h).
    rewrite (add_eos_W BoolSR G s' s eos h xs Hh Hb). exact H.
Qed.

(* a token other than eos (no assumption on the strings of G is needed here) *)
Theorem mask_token_gen : forall (G : grammar BoolSR) (s' s eos : nat) (ctx : list nat) (t : nat),
  (forall r, In r G -> rhead r <> s') ->
  (forall r, In r G -> ~ In (N s') (rbody r)) ->
  t <> eos ->
  ((exists h, Wpre (add_eos s' s eos G) h s' (ctx ++ [t]) = true)
   <-> exists rest, in_language G s (ctx ++ t :: rest)).
Proof.
  intros G s' s eos ctx t Hh Hb Hne. rewrite viable_iff_completable. split.
  - intros [ys [Hp Hl]]. apply (eos_language G s' s eos ys Hh Hb) in Hl.
    destruct Hl as [xs [-> Hl]]. apply is_prefix_iff in Hp. destruct Hp as [rest Hp].
    destruct (prefix_snoc_inside xs ctx rest eos t Hp Hne) as [rest' ->].
    exists rest'. exact Hl.
  - intros [rest Hl]. exists ((ctx ++ t :: rest) ++ [eos]). split.
    + apply is_prefix_iff. exists (rest ++ [eos]). rewrite <- !app_assoc. reflexivity.
    + apply (eos_language G s' s eos _ Hh Hb). exists (ctx ++ t :: rest).
      split; [reflexivity|exact Hl].
Qed.

Theorem mask_token : forall (G : grammar BoolSR) (s' s eos : nat) (ctx : list nat) (t : nat),
  (forall r, In r G -> rhead r <> s') ->
  (forall r, In r G -> ~ In (N s') (rbody r)) ->
  t <> eos ->
  (forall xs, in_language G s xs -> ~ In eos xs) ->
  ((exists h, Wpre (add_eos s' s eos G) h s' (ctx ++ [t]) = true)
   <-> exists rest, in_language G s (ctx ++ t :: rest)).
Proof.
  intros G s' s eos ctx t Hh Hb Hne _. exact (mask_token_gen G s' s eos ctx t Hh Hb Hne).
Qed.

Theorem mask_eos : forall (G : grammar BoolSR) (s' s eos : nat) (ctx : list nat),
  (forall r, In r G -> rhead r <> s') ->
  (forall r, In r G -> ~ In (N s') (rbody r)) ->
  (forall xs, in_language G s xs -> ~ In eos xs) ->
  ((exists h, Wpre (add_eos s' s eos G) h s' (ctx ++ [eos]) = true) <-> in_language G s ctx).
Proof.
  intros G s' s eos ctx Hh Hb Hno. rewrite viable_iff_completable. split.
  - intros [ys [Hp Hl]]. apply (eos_language G s' s eos ys Hh Hb) in Hl.
    destruct Hl as [xs [-> Hl]]. apply is_prefix_iff in Hp. destruct Hp as [rest Hp].
    rewrite <- app_assoc in Hp. simpl in Hp.
    destruct (eos_first xs ctx rest eos Hp (Hno xs Hl)) as [<- _]. exact Hl.
  - intros Hl. exists (ctx ++ [eos]). split; [apply is_prefix_refl|].
    apply (eos_language G s' s eos _ Hh Hb). exists ctx. split; [reflexivity|exact Hl].
Qed.

Lemma language_terminals : forall (G : grammar BoolSR) (X : nat) (xs : list nat) (a : nat),
  in_language G X xs -> In a xs -> exists r, In r G /\ In (T a) (rbody r).
Proof.
  intros G X xs a [h H] Ha. rewrite W_trees in H. apply bool_bsum_true in H.
  destruct H as [t [Hin _]]. apply filter_In in Hin. destruct Hin as [Hin Hy].
  apply list_eqb_nat_spec in Hy. subst xs.
  exact (trees_yield_in BoolSR G (fun a => exists r, In r G /\ In (T a) (rbody r))
           (fun r a Hr Hb => ex_intro _ r (conj Hr Hb)) h X t Hin a Ha).
Qed.

Lemma no_eos_in_language : forall (G : grammar BoolSR) (eos : nat),
  (forall r, In r G -> ~ In (T eos) (rbody r)) ->
  forall X xs, in_language G X xs -> ~ In eos xs.
Proof.
  intros G eos Hno X xs Hl Hin.
  destruct (language_terminals G X xs eos Hl Hin) as [r [Hr Hb]]. exact (Hno r Hr Hb).
Qed.

Corollary mask_eos_syntactic : forall (G : grammar BoolSR) (s' s eos : nat) (ctx : list nat),
  (forall r, In r G -> rhead r <> s') ->
  (forall r, In r G -> ~ In (N s') (rbody r)) ->
  (forall r, In r G -> ~ In (T eos) (rbody r)) ->
  ((exists h, Wpre (add_eos s' s eos G) h s' (ctx ++ [eos]) = true) <-> in_language G s ctx).
Proof.
  intros G s' s eos ctx Hh Hb Hno. apply mask_eos; [exact Hh|exact Hb|].
  intros xs Hl. exact (no_eos_in_language G eos Hno s xs Hl).
Qed.

Print Assumptions eos_language.
Print Assumptions mask_token_gen.
Print Assumptions mask_token.
Print Assumptions mask_eos.
Print Assumptions no_eos_in_language.
Print Assumptions mask_eos_syntactic.

(* X0 -> 1 X1 ; X1 -> 0 ; X1 -> eps, wrapped as X9 -> X0 7 : strings [1;0;7] and [1;7] *)
Definition eos_ex_G : grammar BoolSR :=
  [ (true, 0, [T 1; N 1]); (true, 1, [T 0]); (true, 1, []) ].

Example eos_ex_token : Wpre (add_eos 9 0 7 eos_ex_G) 4 9 [1; 0] = true.
Proof. vm_compute. reflexivity. Qed.

(* eos is offered after the complete string [1] *)
Example eos_ex_eos : Wpre (add_eos 9 0 7 eos_ex_G) 4 9 [1; 7] = true.
Proof. vm_compute. reflexivity. Qed.

(* eos is not offered after the empty context: [] is not a string of the grammar *)
Example eos_ex_no_eos : Wpre (add_eos 9 0 7 eos_ex_G) 4 9 [7] = false.
Proof. vm_compute. reflexivity. Qed.

Lemma eos_ex_heads : forall r, In r eos_ex_G -> rhead r <> 9.
Proof. intros r [<-|[<-|[<-|[]]]]; simpl; discriminate. Qed.

Lemma eos_ex_bodies : forall r, In r eos_ex_G -> ~ In (N 9) (rbody r).
Proof.
  intros r [<-|[<-|[<-|[]]]]; simpl; intros H;
    repeat (destruct H as [H|H]; [discriminate H|]); exact H.
Qed.

Lemma eos_ex_no_eos_terminal : forall r, In r eos_ex_G -> ~ In (T 7) (rbody r).
Proof.
  intros r [<-|[<-|[<-|[]]]]; simpl; intros H;
    repeat (destruct H as [H|H]; [discriminate H|]); exact H.
Qed.

(* the theorems on the instance: [1] . 0 is completable to a string of the grammar, and
   [1] is a complete string *)
Example eos_ex_token_reading : exists rest, in_language eos_ex_G 0 ([1] ++ 0 :: rest).
Proof.
  apply (proj1 (mask_token_gen eos_ex_G 9 0 7 [1] 0 eos_ex_heads eos_ex_bodies
                  (fun E => O_S 6 E))).
  exists 4. vm_compute. reflexivity.
Qed.

Example eos_ex_eos_reading : in_language eos_ex_G 0 [1].
Proof.
  apply (proj1 (mask_eos_syntactic eos_ex_G 9 0 7 [1] eos_ex_heads eos_ex_bodies
                  eos_ex_no_eos_terminal)).
  exists 4. vm_compute. reflexivity.
Qed.

(* and [] is not a complete string, so eos is never offered after the empty context *)
Example eos_ex_no_eos_reading : forall h, Wpre (add_eos 9 0 7 eos_ex_G) h 9 ([] ++ [7]) = false.
Proof.
  intros h. destruct (Wpre (add_eos 9 0 7 eos_ex_G) h 9 ([] ++ [7])) eqn:E; [exfalso|reflexivity].
  assert (Hl : in_language eos_ex_G 0 []).
  { apply (proj1 (mask_eos_syntactic eos_ex_G 9 0 7 [] eos_ex_heads eos_ex_bodies
                    eos_ex_no_eos_terminal)). exists h. exact E. }
  destruct Hl as [h' Hl]. destruct h' as [|h']; [discriminate Hl|]. cbn in Hl. discriminate Hl.
Qed.

Print Assumptions eos_ex_token_reading.
Print Assumptions eos_ex_eos_reading.
Print Assumptions eos_ex_no_eos_reading.
