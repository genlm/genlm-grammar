(* The modelled CFG.trim (TopDown.trim_model) returns a trimmed grammar in the sense of the checker all_useful
   (model/Useful.v), where usefulness is measured IN THE RESULT: every head and every body nonterminal of
   trim_model s G is productive in trim_model s G and reachable from s in trim_model s G.  A grammar that passes
   all_useful is left unchanged by trim_model, so trimming twice is trimming once, as rule lists.
   Two reachabilities meet here: TopDown.reachable with its relation ReachProofs.reach_rel (through rules with
   generating bodies, what trim computes) and Useful.reachable with [reach] (through every rule, what the checker
   computes); the lemmas of ReachProofs.v are used qualified. *)
From Coq Require Import List Bool.
From GV.lib Require Import Semiring.
From GV.model Require Import Cfg Transform Useful.
From GV.model Require TopDown.
From GV.proofs Require Import Closure TrimProofs TopDownTrimProofs UsefulProofs.
From GV.proofs Require ReachProofs.
Import ListNotations.

Lemma filter_all_true {A} (f : A -> bool) (l : list A) : (forall x, In x l -> f x = true) -> filter f l = l.
Proof.
  induction l as [|a t IH]; intros H; simpl; [reflexivity|].
  rewrite (H a (or_introl eq_refl)). f_equal. apply IH. intros x Hx. apply H. right; exact Hx.
Qed.

Section TrimUsefulProofs.
Variable S : SR.

Lemma trim_model_rules (s : nat) (G : grammar S) (r : rule S) :
  In r (TopDown.trim_model s G) <->
  In r G /\ In (rhead r) (TopDown.reachable G s) /\ (forall x, In (N x) (rbody r) -> In x (TopDown.reachable G s)).
Proof.
  unfold TopDown.trim_model. rewrite topdown_trim_rules, ReachProofs.keep_nts_all. cbn [TopDown.keep_nts].
  rewrite mem_spec. reflexivity.
Qed.

Lemma trim_model_productive (s : nat) (G : grammar S) (X : nat) :
  productive G X -> In X (TopDown.reachable G s) -> productive (TopDown.trim_model s G) X.
Proof.
  induction 1 as [r Hr Hb IH]. intros HR.
  assert (Hgen : forallb (gen_sym (generating G)) (rbody r) = true).
  { apply gen_sym_all. intros y Hy. apply generating_complete. apply Hb; exact Hy. }
  pose proof (ReachProofs.reachable_closed S G s r Hr HR Hgen) as Hall.
  apply (prod_rule (TopDown.trim_model s G) r).
  - apply trim_model_rules. split; [exact Hr|split; [exact HR|exact Hall]].
  - intros y Hy. apply IH; [exact Hy|apply Hall; exact Hy].
Qed.

Lemma reached_productive (s : nat) (G : grammar S) (X : nat) :
  In X (TopDown.reachable G s) -> productive (TopDown.trim_model s G) X.
Proof.
  intros HX. apply trim_model_productive; [|exact HX].
  apply generating_sound. apply (ReachProofs.reachable_generating S G s X HX).
Qed.

Lemma reached_nonempty_start (s : nat) (G : grammar S) (X : nat) :
  In X (TopDown.reachable G s) -> In s (generating G).
Proof.
  intros HX. destruct (existsb (Nat.eqb s) (generating G)) eqn:Es; [apply mem_spec; exact Es|].
  apply mem_false in Es. rewrite (ReachProofs.reachable_dead_start S G s Es) in HX. destruct HX.
Qed.

Lemma reach_rel_trim (s : nat) (G : grammar S) (X : nat) :
  In s (generating G) -> ReachProofs.reach_rel G s X -> reach S (TopDown.trim_model s G) s X.
Proof.
  intros Hs H. induction H as [|r Y Hr Hrr IH Hb HY]; [apply reach_start|].
  pose proof (ReachProofs.reachable_complete S G s (rhead r) Hs Hrr) as Hh.
  pose proof (ReachProofs.reachable_closed S G s r Hr Hh Hb) as Hall.
  apply (reach_rule S (TopDown.trim_model s G) s r Y); [|exact IH|exact HY].
  apply trim_model_rules. split; [exact Hr|split; [exact Hh|exact Hall]].
Qed.

Lemma reached_reach (s : nat) (G : grammar S) (X : nat) :
  In X (TopDown.reachable G s) -> reach S (TopDown.trim_model s G) s X.
Proof.
  intros HX. apply reach_rel_trim; [exact (reached_nonempty_start s G X HX)|].
  apply ReachProofs.reachable_sound; exact HX.
Qed.

Theorem trim_model_all_useful : forall (s : nat) (G : grammar S),
  all_useful s (TopDown.trim_model s G) = true.
Proof.
  intros s G. apply all_useful_spec. intros r Hr.
  apply trim_model_rules in Hr. destruct Hr as [_ [Hh Hb]].
  split.
  - split; [apply reached_productive; exact Hh|apply reached_reach; exact Hh].
  - intros x Hx. split; [apply reached_productive|apply reached_reach]; apply Hb; exact Hx.
Qed.

(* in a trimmed grammar every body is generating, so plain reachability is reach_rel *)
Lemma all_useful_reach_rel (s : nat) (G : grammar S) (X : nat) :
  all_useful s G = true -> reach S G s X -> ReachProofs.reach_rel G s X.
Proof.
  intros Hu HX. pose proof (proj1 (all_useful_spec S s G) Hu) as H.
  induction HX as [|r y Hr _ IH Hy]; [apply ReachProofs.rr_start|].
  apply (ReachProofs.rr_step S G s r y Hr IH); [|exact Hy].
  apply gen_sym_all. intros x Hx. apply generating_complete. exact (proj1 (proj2 (H r Hr) x Hx)).
Qed.

Theorem all_useful_trim_fixed : forall (s : nat) (G : grammar S),
  all_useful s G = true -> TopDown.trim_model s G = G.
Proof.
  intros s G Hu. unfold TopDown.trim_model. rewrite topdown_trim_is_filter.
  apply filter_all_true. intros r Hr.
  pose proof (proj1 (all_useful_spec S s G) Hu r Hr) as [[_ Hh] Hb].
  assert (Hs : In s (generating G)).
  { apply generating_complete. exact (all_useful_start_productive S s G r Hu Hr). }
  assert (Hin : forall X, reach S G s X -> In X (TopDown.reachable G s)).
  { intros X HX. apply (ReachProofs.reachable_complete S G s X Hs).
    apply all_useful_reach_rel; assumption. }
  apply andb_true_iff. split.
  - cbn [TopDown.keep_nts]. apply mem_spec, Hin, Hh.
  - apply ReachProofs.keep_nts_all. intros x Hx. exact (Hin x (proj2 (Hb x Hx))).
Qed.

Theorem trim_model_idempotent : forall (s : nat) (G : grammar S),
  TopDown.trim_model s (TopDown.trim_model s G) = TopDown.trim_model s G.
Proof. intros s G. apply all_useful_trim_fixed, trim_model_all_useful. Qed.

End TrimUsefulProofs.

Print Assumptions trim_model_all_useful.
Print Assumptions all_useful_trim_fixed.
Print Assumptions trim_model_idempotent.

(* td_ex_G of TopDownTrimProofs.v, start 0;  0 -> a | 1 b | 3;  1 -> a;  2 -> b [unreachable];  3 -> 3 [non-generating]:
   the input is not trimmed, the output is, and trimming the output again changes nothing *)
Example trim_useful_ex :
  all_useful 0 (TopDown.trim_model 0 td_ex_G) = true /\
  all_useful 0 td_ex_G = false /\
  TopDown.trim_model 0 td_ex_G <> td_ex_G /\
  TopDown.trim_model 0 (TopDown.trim_model 0 td_ex_G) = TopDown.trim_model 0 td_ex_G.
Proof.
  split; [vm_compute; reflexivity|]. split; [vm_compute; reflexivity|]. split.
  - intros E. apply (f_equal (@length _)) in E. vm_compute in E. discriminate E.
  - vm_compute. reflexivity.
Qed.
Print Assumptions trim_useful_ex.
