(* Over the expectation semiring the Kleene iteration of the LIFTED grammar (the lifting of
   CFG.expected_length: rule weight w becomes <w, w * #terminals(body)>) computes, at every
   height h, the pair
       < total weight of the derivation trees of height <= h,
         sum over those trees of weight * length of the yield >
   of the ORIGINAL grammar: "over the expectation semiring the same computation yields the
   weight-weighted total string length".  Valid over any commutative semiring. *)
From Coq Require Import List BinNat.
From GV.lib Require Import Semiring BigSum.
From GV.model Require Import Cfg Agenda Expect.
From GV.proofs Require Import CfgTrees ProductProofs ExpectProofs TotalStringsProofs.
Import ListNotations.
Local Open Scope sr_scope.

Lemma flat_map_map_l {A B C} (g : A -> B) (f : B -> list C) (l : list A) :
  flat_map f (map g l) = flat_map (fun a => f (g a)) l.
Proof. induction l as [|a t IH]; simpl; [reflexivity|rewrite IH; reflexivity]. Qed.

Lemma map_flat_map_l {A B C} (f : B -> C) (g : A -> list B) (l : list A) :
  map f (flat_map g l) = flat_map (fun a => map f (g a)) l.
Proof. induction l as [|a t IH]; simpl; [reflexivity|rewrite map_app, IH; reflexivity]. Qed.

Lemma combine_seq_map {A B} (f : A -> B) (l : list A) : forall s,
  combine (seq s (length (map f l))) (map f l)
  = map (fun ir => (fst ir, f (snd ir))) (combine (seq s (length l)) l).
Proof.
  induction l as [|x l IH]; intros s; simpl; [reflexivity|].
  rewrite IH. reflexivity.
Qed.

Section ExpectTotal.
Variable S : SR.
Add Ring SRing : (sth S).

Definition glift (G : grammar S) : grammar (ExpSR S) :=
  map (fun r => lift_rule r : rule (ExpSR S)) G.

Lemma rhead_lift (r : rule S) : @rhead (ExpSR S) (lift_rule r) = rhead r.
Proof. reflexivity. Qed.
Lemma rbody_lift (r : rule S) : @rbody (ExpSR S) (lift_rule r) = rbody r.
Proof. reflexivity. Qed.

Lemma indexed_lift (G : grammar S) :
  indexed (ExpSR S) (glift G)
  = map (fun ir => (fst ir, lift_rule (snd ir) : rule (ExpSR S))) (indexed S G).
Proof. unfold indexed, glift. apply combine_seq_map. Qed.

Lemma forests_lift (tr : nat -> list (tree S)) (tr' : nat -> list (tree (ExpSR S))) :
  (forall Y, tr' Y = map (tlift S) (tr Y)) ->
  forall body, forests_of tr' body = map (flift S) (forests_of tr body).
Proof.
  intros Htr. induction body as [|s rest IH]; [reflexivity|].
  destruct s as [a|Y]; cbn [forests_of].
  - rewrite IH, !map_map. apply map_ext; intros fo. reflexivity.
  - rewrite Htr, flat_map_map_l, map_flat_map_l. apply flat_map_ext; intros t.
    rewrite IH, !map_map. apply map_ext; intros fo. reflexivity.
Qed.

Theorem trees_lift : forall (G : grammar S) (h X : nat),
  trees (glift G) h X = map (tlift S) (trees G h X).
Proof.
  intros G h; induction h as [|h IH]; intros X; [reflexivity|].
  cbn [trees]. rewrite indexed_lift, flat_map_map_l, map_flat_map_l.
  apply flat_map_ext; intros [i r]. cbn [fst snd].
  rewrite rhead_lift, rbody_lift.
  destruct (Nat.eqb (rhead r) X); [|reflexivity].
  rewrite (forests_lift (trees G h) (trees (glift G) h) IH), !map_map.
  apply map_ext; intros fo. reflexivity.
Qed.

Lemma bsum_pair {A} (l : list A) (u v : A -> S) :
  bsum (S := ExpSR S) l (fun a => (u a, v a)) = (bsum l u, bsum l v).
Proof.
  induction l as [|a t IH]; [reflexivity|].
  rewrite !bsum_cons, IH. reflexivity.
Qed.

Theorem expectation_iterate : forall (G : grammar S) (h X : nat),
  bu_iter (glift G) h X
  = (bu_iter G h X,
     bsum (trees G h X) (fun t => tweight t * nat_s (length (tyield t)))).
Proof.
  intros G h X.
  rewrite (bu_iter_trees (ExpSR S)), trees_lift, bsum_map.
  rewrite (bu_iter_trees S).
  rewrite <- bsum_pair. apply bsum_ext; intros t Ht.
  apply trees_sound in Ht. destruct Ht as [Hw _].
  exact (expectation_tree_weight S G t X Hw).
Qed.

Corollary expectation_iterate_fst : forall (G : grammar S) (h X : nat),
  fst (bu_iter (glift G) h X) = bu_iter G h X.
Proof. intros. rewrite expectation_iterate. reflexivity. Qed.

Corollary expectation_iterate_snd : forall (G : grammar S) (h X : nat),
  snd (bu_iter (glift G) h X)
  = bsum (trees G h X) (fun t => tweight t * nat_s (length (tyield t))).
Proof. intros. rewrite expectation_iterate. reflexivity. Qed.

(* the weight-weighted total yield length is the sum over all strings of
   (height-h derivation sum of the string) * (its length) *)
Theorem weighted_length_is_sum_of_strings :
  forall (G : grammar S) (V : list nat) (h X L : nat), NoDup V ->
  yields_within S G h X V L ->
  bsum (trees G h X) (fun t => tweight t * nat_s (length (tyield t)))
  = bsum (words_le V L) (fun xs => W G h X xs * nat_s (length xs)).
Proof.
  intros G V h X L HV Hy.
  etransitivity;
    [exact (trees_by_yield S G V h X L (fun xs t => tweight t * nat_s (length xs)) HV Hy)|].
  apply bsum_ext; intros xs _. rewrite W_trees. apply bsum_mul_r.
Qed.

Corollary expectation_iterate_strings :
  forall (G : grammar S) (V : list nat) (h X L : nat), NoDup V ->
  yields_within S G h X V L ->
  bu_iter (glift G) h X
  = (bsum (words_le V L) (fun xs => W G h X xs),
     bsum (words_le V L) (fun xs => W G h X xs * nat_s (length xs))).
Proof.
  intros G V h X L HV Hy. rewrite expectation_iterate.
  rewrite (total_is_sum_of_strings S G V h X L HV Hy).
  rewrite (weighted_length_is_sum_of_strings G V h X L HV Hy). reflexivity.
Qed.

End ExpectTotal.

Print Assumptions trees_lift.
Print Assumptions bsum_pair.
Print Assumptions expectation_iterate.
Print Assumptions weighted_length_is_sum_of_strings.
Print Assumptions expectation_iterate_strings.

Local Close Scope sr_scope.

Definition ex_GE : grammar NSR :=
  [ (2%N, 0, [T 1; N 1]); (3%N, 1, [T 0]); (5%N, 1, []) ].

(* trees for 0 at height 3: yield [1;0], weight 6, length 2 -> 12; yield [1], weight 10,
   length 1 -> 10; total weight 16, weight-weighted total length 22 *)
Example ex_GE_iterate : bu_iter (glift NSR ex_GE) 3 0 = (16%N, 22%N).
Proof. vm_compute. reflexivity. Qed.

Example ex_GE_sides :
  bu_iter ex_GE 3 0 = 16%N /\
  bsum (trees ex_GE 3 0) (fun t => smul (tweight t) (nat_s (length (tyield t)))) = 22%N /\
  bsum (words_le [0; 1] 2) (fun xs => smul (W ex_GE 3 0 xs) (nat_s (length xs))) = 22%N /\
  map (fun t => (tyield t, tweight t)) (trees ex_GE 3 0) = [([1; 0], 6%N); ([1], 10%N)].
Proof. vm_compute. repeat split; reflexivity. Qed.

Print Assumptions ex_GE_iterate.
Print Assumptions ex_GE_sides.
