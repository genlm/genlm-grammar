(* The expectation semiring (semiring.Expectation) is a commutative semiring, and over it the
   weight of a lifted derivation tree is <w, w * number of terminal leaves>
   (the basis of CFG.expected_length). *)
From Coq Require Import List Arith Bool Lia.
From GV.lib Require Import Semiring.
From GV.model Require Import Cfg Expect.
From GV.proofs Require Import CfgTrees.
Import ListNotations.
Local Open Scope sr_scope.

Section ExpectProofs.
Variable S : SR.
Add Ring SRing : (sth S).

Lemma exp_srt : semi_ring_theory (@e0 S) (@e1 S) (@eadd S) (@emul S) (@eq (S * S)).
Proof.
  (* componentwise by the axioms of S; [ring] for the second component of the products *)
  pose proof (sth S) as R. constructor.
  - intros [a1 a2]. exact (f_equal2 pair (SRadd_0_l R a1) (SRadd_0_l R a2)).
  - intros [a1 a2] [b1 b2]. exact (f_equal2 pair (SRadd_comm R a1 b1) (SRadd_comm R a2 b2)).
  - intros [a1 a2] [b1 b2] [c1 c2]. exact (f_equal2 pair (SRadd_assoc R a1 b1 c1) (SRadd_assoc R a2 b2 c2)).
  - intros [a1 a2]. apply (f_equal2 pair (SRmul_1_l R a1)). cbv [e1 fst snd]. ring.
  - intros [a1 a2]. apply (f_equal2 pair (SRmul_0_l R a1)). cbv [e0 fst snd]. ring.
  - intros [a1 a2] [b1 b2]. exact (f_equal2 pair (SRmul_comm R a1 b1) (SRadd_comm R (a1 * b2) (b1 * a2))).
  - intros [a1 a2] [b1 b2] [c1 c2]. apply (f_equal2 pair (SRmul_assoc R a1 b1 c1)). cbv [emul fst snd]. ring.
  - intros [a1 a2] [b1 b2] [c1 c2]. apply (f_equal2 pair (SRdistr_l R a1 b1 c1)). cbv [emul eadd fst snd]. ring.
Qed.

Lemma eeqb_spec : forall a b : S * S, eeqb a b = true <-> a = b.
Proof.
  intros [a1 a2] [b1 b2]. unfold eeqb; cbn [fst snd].
  rewrite andb_true_iff, !seqb_spec. split.
  - intros [H1 H2]. subst; reflexivity.
  - intros H. injection H as H1 H2. split; assumption.
Qed.

Definition ExpSR : SR := mkSR (S * S) e0 e1 eadd emul exp_srt eeqb eeqb_spec.

Fixpoint tlift (t : tree S) : tree ExpSR :=
  match t with
  | Leaf a => Leaf a
  | Node i r k => Node i (lift_rule r : rule ExpSR) (flift k)
  end
with flift (f : forest S) : forest ExpSR :=
  match f with
  | Fnil => Fnil
  | Fcons t f' => Fcons (tlift t) (flift f')
  end.

Definition leaves (t : tree S) : nat := length (tyield t).

(* terminal leaves, counted through the rules that introduce them *)
Fixpoint nterm (t : tree S) : nat :=
  match t with
  | Leaf _ => O
  | Node _ r k => (n_terminals (rbody r) + fnterm k)%nat
  end
with fnterm (f : forest S) : nat :=
  match f with
  | Fnil => O
  | Fcons t f' => (nterm t + fnterm f')%nat
  end.

Lemma nat_s_add (a b : nat) : @nat_s S (a + b)%nat = nat_s a + nat_s b.
Proof.
  induction a as [|a IH].
  - change (@nat_s S b = 0 + nat_s b). ring.
  - change (1 + @nat_s S (a + b)%nat = (1 + nat_s a) + nat_s b). rewrite IH. ring.
Qed.

Lemma tlift_leaf a : tlift (Leaf a) = Leaf a. Proof. reflexivity. Qed.
Lemma tlift_node i r k : tlift (Node i r k) = Node i (lift_rule r : rule ExpSR) (flift k).
Proof. reflexivity. Qed.
Lemma flift_nil : flift Fnil = Fnil. Proof. reflexivity. Qed.
Lemma flift_cons t f : flift (Fcons t f) = Fcons (tlift t) (flift f). Proof. reflexivity. Qed.

Lemma exp_one : (@s1 ExpSR) = (1, 0). Proof. reflexivity. Qed.
Lemma exp_mul (a1 a2 b1 b2 : S) :
  @smul ExpSR (a1, a2) (b1, b2) = (a1 * b1, a1 * b2 + b1 * a2).
Proof. reflexivity. Qed.
Lemma rw_lift (r : rule S) :
  @rw ExpSR (lift_rule r) = (rw r, rw r * nat_s (n_terminals (rbody r))).
Proof. reflexivity. Qed.

Lemma lift_weight_nterm :
  (forall t : tree S, tweight (tlift t) = (tweight t, tweight t * nat_s (nterm t))) /\
  (forall f : forest S, fweight (flift f) = (fweight f, fweight f * nat_s (fnterm f))).
Proof.
  apply tree_forest_ind; cbn [nterm fnterm].
  - intros a. rewrite tlift_leaf, !tweight_leaf, exp_one.
    change (@nat_s S O) with (@s0 S). rewrite smul_0_r. reflexivity.
  - intros i r k IHk. rewrite tlift_node, !tweight_node, IHk, rw_lift, exp_mul, nat_s_add.
    f_equal; ring.
  - rewrite flift_nil, !fweight_nil, exp_one.
    change (@nat_s S O) with (@s0 S). rewrite smul_0_r. reflexivity.
  - intros t IHt f IHf. rewrite flift_cons, !fweight_cons, IHt, IHf, exp_mul, nat_s_add.
    f_equal; ring.
Qed.

Lemma n_terminals_cons (s : sym) (body : list sym) :
  n_terminals (s :: body) = ((match s with T _ => 1%nat | N _ => O end) + n_terminals body)%nat.
Proof. unfold n_terminals. destruct s; reflexivity. Qed.

Lemma nterm_yield (G : grammar S) :
  (forall s t, twf S G s t ->
     (nterm t + (match s with T _ => 1%nat | N _ => O end))%nat = length (tyield t)) /\
  (forall body f, fwf S G body f ->
     (fnterm f + n_terminals body)%nat = length (fyield f)).
Proof.
  apply twf_fwf_ind; cbn [nterm fnterm].
  - intros a. rewrite tyield_leaf. reflexivity.
  - intros i r kids Hn Hk IHk. rewrite tyield_node. lia.
  - rewrite fyield_nil. reflexivity.
  - intros s body t f Ht IHt Hf IHf.
    rewrite fyield_cons, n_terminals_cons, app_length. lia.
Qed.

Theorem expectation_tree_weight : forall (G : grammar S) (t : tree S) (X : nat), twf S G (N X) t ->
  tweight (tlift t) = (tweight t, tweight t * nat_s (length (tyield t))).
Proof.
  intros G t X Hw. rewrite (proj1 lift_weight_nterm t).
  pose proof (proj1 (nterm_yield G) (N X) t Hw) as Hd. cbn beta iota in Hd.
  rewrite Nat.add_0_r in Hd. rewrite Hd. reflexivity.
Qed.

Corollary expectation_tree_leaves : forall (G : grammar S) (t : tree S) (X : nat), twf S G (N X) t ->
  tweight (tlift t) = (tweight t, tweight t * nat_s (leaves t)).
Proof. exact expectation_tree_weight. Qed.

End ExpectProofs.

Print Assumptions exp_srt.
Print Assumptions expectation_tree_weight.
