(* The prefix weight Wpre of model/Prefix.v is the total weight of the enumerated
   derivation trees (of bounded height) whose yield begins with the given string.
   Corollaries: the empty prefix gives the total weight bu_iter, and over the Boolean
   semiring a prefix is viable iff some derivation tree has a yield beginning with it. *)
From Coq Require Import List Arith.
From GV.lib Require Import Semiring BigSum.
From GV.model Require Import Cfg Agenda MachSpec Prefix.
From GV.proofs Require Import CfgTrees.
Import ListNotations.
Local Open Scope sr_scope.

Lemma filter_map_swap {A B} (P : B -> bool) (g : A -> B) (l : list A) :
  filter P (map g l) = map g (filter (fun a => P (g a)) l).
Proof.
  induction l as [|a t IH]; simpl; [reflexivity|].
  destruct (P (g a)); simpl; rewrite IH; reflexivity.
Qed.

Lemma splits_ne_nil {A} : splits_ne (@nil A) = [].
Proof. reflexivity. Qed.

Lemma splits_ne_cons {A} (a : A) (p : list A) :
  splits_ne (a :: p) = ([], a :: p) :: map (fun s => (a :: fst s, snd s)) (splits_ne p).
Proof.
  unfold splits_ne. cbn [splits filter snd length Nat.eqb negb].
  rewrite filter_map_swap. reflexivity.
Qed.

Lemma is_prefix_nil_r (p : list nat) : is_prefix p [] = match p with [] => true | _ => false end.
Proof. destruct p; reflexivity. Qed.

Section PrefixTrees.
Variable S : SR.
Add Ring SRing : (sth S).

(* p is a prefix of u ++ v  iff  p is a prefix of u, or u is a proper prefix of p and
   the rest of p is a prefix of v; the alternatives are exclusive *)
Lemma is_prefix_app_split (c : S) (v : list nat) : forall (p u : list nat),
  (if is_prefix p (u ++ v) then c else 0)
  = bsum (splits_ne p) (fun s => if list_eqb Nat.eqb u (fst s)
                                  then (if is_prefix (snd s) v then c else 0) else 0)
    + (if is_prefix p u then c else 0).
Proof.
  induction p as [|a p IH]; intros u.
  - rewrite splits_ne_nil, bsum_nil. symmetry. apply sadd_0_l.
  - rewrite splits_ne_cons, bsum_cons, bsum_map. cbn [fst snd].
    destruct u as [|b u].
    + cbn [app is_prefix list_eqb]. rewrite bsum_zero by (intros; reflexivity). rewrite !sadd_0_r. reflexivity.
    + cbn [app is_prefix list_eqb]. rewrite (Nat.eqb_sym b a), sadd_0_l. destruct (Nat.eqb a b); cbn [andb].
      * apply IH.
      * rewrite bsum_zero by (intros; reflexivity). symmetry. apply sadd_0_l.
Qed.

(* the prefix analogue of split_conv *)
Lemma prefix_conv {A B} (la : list A) (lb : list B) (ya : A -> list nat) (yb : B -> list nat)
      (wa : A -> S) (wb : B -> S) (p : list nat) :
  bsum (splits_ne p)
       (fun s => bsum la (fun a => if list_eqb Nat.eqb (ya a) (fst s) then wa a else 0)
                 * bsum lb (fun b => if is_prefix (snd s) (yb b) then wb b else 0))
  + bsum la (fun a => if is_prefix p (ya a) then wa a else 0) * bsum lb wb
  = bsum la (fun a => bsum lb (fun b =>
       if is_prefix p (ya a ++ yb b) then wa a * wb b else 0)).
Proof.
  rewrite bsum_if_mul, bsum_bsum_mul, <- bsum_add. apply bsum_ext; intros a _.
  rewrite <- bsum_add. apply bsum_ext; intros b _.
  rewrite (is_prefix_app_split (wa a * wb b) (yb b) p (ya a)). f_equal.
  apply smul_if_l.
Qed.

Lemma WBpre_forests (tr : nat -> list (tree S)) (w wp : nat -> list nat -> S) (Z : nat -> S) :
  (forall Y ys, w Y ys = bsum (filter (yields ys) (tr Y)) tweight) ->
  (forall Y q, wp Y q = bsum (filter (fun t => is_prefix q (tyield t)) (tr Y)) tweight) ->
  (forall Y, Z Y = bsum (tr Y) tweight) ->
  forall body p,
    WBpre w wp Z body p
    = bsum (filter (fun fo => is_prefix p (fyield fo)) (forests_of tr body)) fweight.
Proof.
  intros Hw Hwp HZ. induction body as [|s rest IH]; intros p.
  - cbn [WBpre forests_of]. rewrite bsum_filter, bsum_cons, bsum_nil, fyield_nil, fweight_nil.
    rewrite is_prefix_nil_r, sadd_0_r. destruct p; reflexivity.
  - destruct s as [a|Y].
    + cbn [WBpre forests_of]. rewrite bsum_filter, bsum_map. destruct p as [|b p'].
      * unfold Zb. rewrite (sprod_forests S tr Z HZ). apply bsum_ext; intros fo _.
        cbn [is_prefix]. rewrite fweight_cons, tweight_leaf, smul_1_l. reflexivity.
      * rewrite (bsum_ext S _ _ (fun fo => if Nat.eqb a b
                   then (if is_prefix p' (fyield fo) then fweight fo else 0) else 0)).
        -- destruct (Nat.eqb a b); [rewrite IH; apply bsum_filter|symmetry; apply bsum_const_zero].
        -- intros fo _. rewrite fyield_cons, tyield_leaf, fweight_cons, tweight_leaf.
           cbn [app is_prefix]. rewrite (Nat.eqb_sym b a).
           rewrite smul_1_l. destruct (Nat.eqb a b); reflexivity.
    + cbn [WBpre forests_of]. rewrite bsum_filter, bsum_flat_map.
      rewrite Hwp, bsum_filter. unfold Zb. rewrite (sprod_forests S tr Z HZ).
      rewrite (bsum_ext S (splits_ne p) _ (fun s =>
                 bsum (tr Y) (fun t => if list_eqb Nat.eqb (tyield t) (fst s) then tweight t else 0)
                 * bsum (forests_of tr rest) (fun fo => if is_prefix (snd s) (fyield fo) then fweight fo else 0)))
        by (intros s _; rewrite Hw, IH, !bsum_filter; reflexivity).
      rewrite prefix_conv. apply bsum_ext; intros t _. rewrite bsum_map. reflexivity.
Qed.

Theorem Wpre_trees : forall (G : grammar S) (h X : nat) (p : list nat),
  Wpre G h X p = bsum (filter (fun t => is_prefix p (tyield t)) (trees G h X)) tweight.
Proof.
  intros G h; induction h as [|h IH]; intros X p; [reflexivity|].
  rewrite bsum_filter.
  rewrite (bsum_trees_S S G h X _
             (fun r fo => if is_prefix p (fyield fo) then rw r * fweight fo else 0)) by reflexivity.
  cbn [Wpre]. apply bsum_head_ext; intros r _ _.
  rewrite (WBpre_forests (trees G h) (W G h) (Wpre G h) (bu_iter G h)
             (W_trees S G h) IH (bu_iter_trees S G h)).
  rewrite bsum_filter, <- bsum_mul_l.
  apply bsum_ext; intros fo _. apply smul_if_r.
Qed.

Corollary Wpre_nil : forall (G : grammar S) (h X : nat), Wpre G h X [] = bu_iter G h X.
Proof.
  intros G h X. rewrite Wpre_trees, bu_iter_trees, bsum_filter.
  apply bsum_ext; intros t _. reflexivity.
Qed.

End PrefixTrees.

Theorem Wpre_bool_viable : forall (G : grammar BoolSR) (X : nat) (p : list nat),
  (exists h, Wpre G h X p = true) <->
  (exists t, twf BoolSR G (N X) t /\ is_prefix p (tyield t) = true /\ tweight t = true).
Proof.
  intros G X p. rewrite <- (bool_trees_filter G X (fun t => is_prefix p (tyield t))).
  split; intros [h Hh]; exists h; [rewrite <- Wpre_trees|rewrite Wpre_trees]; exact Hh.
Qed.

Print Assumptions Wpre_trees.
Print Assumptions Wpre_nil.
Print Assumptions Wpre_bool_viable.
