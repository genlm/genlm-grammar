(* Conversions of automata.
   WFSA.to_cfg: the height-bounded derivation sums of the converted grammar are the
   fuel-bounded (epsilon-aware) path sums of the automaton.
   Right recursion: trees of height f+1 from nt(q) <-> paths with <= f arcs from q.
   Left recursion: the same with backward path sums (paths from an initial state
   to q), which consume the string from the right; it is the right-recursive
   grammar of the reversed automaton with every rule body reversed.  The regenerated
   to_cfg is the model ([gen_to_cfg_right_model], [gen_to_cfg_left_model]).
   WFSA.to_bytes: the byte automaton gives every byte string the total weight of the
   symbol strings whose encoding it is. *)
From Coq Require Import List Arith Bool Lia.
From GV.lib Require Import Semiring BigSum.
From GV.model Require Import Cfg Wfsa WfsaEps Bytes.
From GV.gen Require Import Gen_ToCfg.
From GV.proofs Require Import CfgTrees UnfoldProofs WfsaProofs.
Import ListNotations.
Local Open Scope sr_scope.

Section ConvertProofs.
Variable S : SR.

Lemma Wb_TN (g : nat -> list nat -> S) a Y xs :
  Wb g [T a; N Y] xs = match xs with b :: t => if Nat.eqb a b then g Y t else 0 | [] => 0 end.
Proof.
  destruct xs as [|b t]; [reflexivity|]. rewrite Wb_T_cons, Wb_N1. reflexivity.
Qed.

Lemma bsum_to_cfg_right s0 nt (m : wfsa S) (F : rule S -> S) :
  bsum (to_cfg_right s0 nt m) F
  = bsum (winit m) (fun e => F (snd e, s0, [N (nt (fst e))]))
    + (bsum (wfinal m) (fun e => F (snd e, nt (fst e), []))
       + bsum (warcs m) (fun ar => F (match albl ar with
                                      | None => (awt ar, nt (asrc ar), [N (nt (adst ar))])
                                      | Some a => (awt ar, nt (asrc ar), [T a; N (nt (adst ar))])
                                      end))).
Proof. unfold to_cfg_right. rewrite !bsum_app, !bsum_map. reflexivity. Qed.

(* one level of the grammar at the nonterminal of q, when g at the nonterminals of the
   states is P: the rules of q are its final weight and its out-going arcs *)
Lemma to_cfg_right_step s0 nt (Hinj : forall p p', nt p = nt p' -> p = p') (Hs0 : forall p, nt p <> s0)
      (m : wfsa S) (g : nat -> list nat -> S) (P : nat -> list nat -> S) q xs :
  (forall p ys, g (nt p) ys = P p ys) ->
  bsum (to_cfg_right s0 nt m) (fun r => if Nat.eqb (rhead r) (nt q) then rw r * Wb g (rbody r) xs else 0)
  = (match xs with [] => wget (wfinal m) q | _ => 0 end) + outs (warcs m) q (ebody P xs).
Proof.
  intros Hg. rewrite bsum_to_cfg_right, (bsum_zero S (winit m)), (SRadd_0_l (sth S)).
  2:{ intros e _. cbn [rhead fst snd]. destruct (Nat.eqb_spec s0 (nt q)) as [E|_]; [|reflexivity].
      destruct (Hs0 q (eq_sym E)). }
  f_equal.
  - cbn [rhead rw rbody fst snd]. destruct xs as [|b t].
    + unfold wget. apply bsum_ext; intros e _. rewrite (eqb_inj_f nt Hinj), (Nat.eqb_sym q), Wb_nil_nil.
      destruct (Nat.eqb (fst e) q); [apply smul_1_r|reflexivity].
    + apply bsum_zero; intros e _. rewrite Wb_nil_cons. destruct (Nat.eqb (nt (fst e)) (nt q)); [apply smul_0_r|reflexivity].
  - apply bsum_ext; intros ar _. unfold ebody.
    destruct (albl ar) as [a|]; cbn [rhead rw rbody fst snd];
      rewrite (eqb_inj_f nt Hinj); destruct (Nat.eqb (asrc ar) q); try reflexivity.
    + rewrite Wb_TN. destruct xs as [|b t]; [apply smul_0_r|]. destruct (Nat.eqb a b); [rewrite Hg; reflexivity|apply smul_0_r].
    + rewrite Wb_N1, Hg. reflexivity.
Qed.

Theorem to_cfg_right_state : forall (m : wfsa S) (s0 : nat) (nt : nat -> nat) (f : nat) (q : nat) (xs : list nat),
  (forall p p', nt p = nt p' -> p = p') -> (forall p, nt p <> s0) ->
  W (to_cfg_right s0 nt m) (Datatypes.S f) (nt q) xs = pwe m f q xs.
Proof.
  intros m s0 nt f q xs Hinj Hs0. revert q xs.
  induction f as [|f IH]; intros q xs; rewrite W_S.
  - rewrite (to_cfg_right_step s0 nt Hinj Hs0 m _ (fun _ _ => 0)) by reflexivity. rewrite pwe_O. f_equal.
    apply bsum_zero; intros ar _. unfold ebody.
    destruct (Nat.eqb (asrc ar) q), (albl ar), xs; try destruct (Nat.eqb _ _); try reflexivity; apply smul_0_r.
  - rewrite (to_cfg_right_step s0 nt Hinj Hs0 m _ (pwe m f)) by exact IH. symmetry. apply pwe_S.
Qed.

Theorem to_cfg_right_start : forall (m : wfsa S) (s0 : nat) (nt : nat -> nat) (f : nat) (xs : list nat),
  (forall p p', nt p = nt p' -> p = p') -> (forall p, nt p <> s0) ->
  W (to_cfg_right s0 nt m) (Datatypes.S (Datatypes.S f)) s0 xs = pathsum_e m f xs.
Proof.
  intros m s0 nt f xs Hinj Hs0.
  rewrite W_S, bsum_to_cfg_right, (bsum_zero S (wfinal m)), (bsum_zero S (warcs m)).
  - rewrite sadd_0_l, sadd_0_r. apply bsum_ext; intros e _. cbn [rhead rw rbody fst snd].
    rewrite Nat.eqb_refl, Wb_N1, (to_cfg_right_state m s0 nt f (fst e) xs Hinj Hs0). reflexivity.
  - intros ar _. destruct (albl ar); cbn [rhead fst snd];
      (destruct (Nat.eqb_spec (nt (asrc ar)) s0) as [E|_]; [destruct (Hs0 _ E)|reflexivity]).
  - intros e _. cbn [rhead fst snd].
    destruct (Nat.eqb_spec (nt (fst e)) s0) as [E|_]; [destruct (Hs0 _ E)|reflexivity].
Qed.

Lemma splits_snoc {A} (x : A) : forall l,
  splits (l ++ [x]) = map (fun p => (fst p, snd p ++ [x])) (splits l) ++ [(l ++ [x], [])].
Proof.
  induction l as [|y l IH]; [reflexivity|]. cbn [app splits map]. rewrite IH, map_app, !map_map. reflexivity.
Qed.

Lemma bsum_splits_rev {A} (F : list A -> list A -> S) : forall xs,
  bsum (splits (rev xs)) (fun p => F (fst p) (snd p))
  = bsum (splits xs) (fun p => F (rev (snd p)) (rev (fst p))).
Proof.
  intros xs; revert F. induction xs as [|x t IH]; intros F; [reflexivity|].
  cbn [rev splits]. rewrite splits_snoc, bsum_app, bsum_cons, bsum_nil, bsum_cons, !bsum_map. cbn [fst snd rev].
  rewrite (IH (fun u v => F u (v ++ [x]))), sadd_0_r. apply (sadd_comm S).
Qed.

(* reading a reversed body off a reversed string *)
Lemma Wb_rev (g : nat -> list nat -> S) : forall body xs,
  Wb g (rev body) (rev xs) = Wb (fun Y ys => g Y (rev ys)) body xs.
Proof.
  induction body as [|s body IH]; intros xs.
  - destruct xs as [|x t]; [reflexivity|]. cbn [rev]. destruct (rev t); reflexivity.
  - cbn [rev]. rewrite Wb_app, (bsum_splits_rev (fun u v => Wb g (rev body) u * Wb g [s] v)).
    rewrite (Wb_app S _ [s] body). apply bsum_ext; intros p _.
    rewrite IH, (smul_comm S). f_equal.
    destruct s as [a|Y]; [|rewrite !Wb_N1; reflexivity].
    rewrite !Wb_T1. destruct (fst p) as [|b [|c t]]; try reflexivity.
    cbn [rev]. destruct (rev t) as [|n [|n' l]]; reflexivity.
Qed.

Definition revrule (r : rule S) : rule S := (rw r, rhead r, rev (rbody r)).

Lemma W_revrule (G : grammar S) : forall h X xs, W (map revrule G) h X (rev xs) = W G h X xs.
Proof.
  induction h as [|h IH]; intros X xs; [reflexivity|].
  rewrite !W_S, bsum_map. apply bsum_ext; intros r _. cbn [revrule rhead rw rbody fst snd].
  destruct (Nat.eqb (rhead r) X); [|reflexivity]. f_equal.
  rewrite Wb_rev. apply Wb_ext. intros Y ys. apply IH.
Qed.

Lemma W_rev (G : grammar S) h X xs : W (map revrule G) h X xs = W G h X (rev xs).
Proof. rewrite <- (W_revrule G h X (rev xs)), rev_involutive. reflexivity. Qed.

(* backward path sums: total weight of the paths with at most [fuel] arcs from an
   initial state to q; the argument is the REVERSED string spelled by the path
   (left recursion consumes the string from the right) *)
Fixpoint pwb (m : wfsa S) (fuel : nat) (q : nat) (rxs : list nat) : S :=
  (match rxs with [] => wget (winit m) q | _ => 0 end) +
  match fuel with
  | O => 0
  | Datatypes.S f =>
      bsum (warcs m) (fun ar =>
        if Nat.eqb (adst ar) q then
          match albl ar with
          | None => awt ar * pwb m f (asrc ar) rxs
          | Some a => match rxs with
                      | b :: t => if Nat.eqb a b then awt ar * pwb m f (asrc ar) t else 0
                      | [] => 0
                      end
          end
        else 0)
  end.
Definition pathsum_b (m : wfsa S) (fuel : nat) (xs : list nat) : S :=
  bsum (wfinal m) (fun e => snd e * pwb m fuel (fst e) (rev xs)).

(* pwb is the forward path sum of the reversed automaton *)
Lemma pwb_reverse (m : wfsa S) : forall fuel q rxs, pwb m fuel q rxs = pwe (wreverse m) fuel q rxs.
Proof.
  induction fuel as [|f IH]; intros q rxs; [reflexivity|].
  rewrite pwe_S. cbn [pwb]. f_equal. unfold outs. cbn [wreverse warcs]. rewrite bsum_map.
  apply bsum_ext; intros ar _. unfold ebody. rewrite asrc_mk, albl_mk, adst_mk, awt_mk.
  destruct (Nat.eqb (adst ar) q); [|reflexivity].
  destruct (albl ar) as [a|]; [|rewrite IH; reflexivity].
  destruct rxs as [|b t]; [reflexivity|]. destruct (Nat.eqb a b); [rewrite IH|]; reflexivity.
Qed.

Lemma to_cfg_left_rev s0 nt (m : wfsa S) :
  to_cfg_left s0 nt m = map revrule (to_cfg_right s0 nt (wreverse m)).
Proof.
  unfold to_cfg_left, to_cfg_right, wreverse; cbn [winit wfinal warcs]. rewrite !map_app, !map_map.
  apply f_equal, f_equal, map_ext. intros ar. rewrite asrc_mk, albl_mk, adst_mk, awt_mk.
  destruct (albl ar); reflexivity.
Qed.

Theorem to_cfg_left_state : forall (m : wfsa S) (s0 : nat) (nt : nat -> nat) (f : nat) (q : nat) (xs : list nat),
  (forall p p', nt p = nt p' -> p = p') -> (forall p, nt p <> s0) ->
  W (to_cfg_left s0 nt m) (Datatypes.S f) (nt q) xs = pwb m f q (rev xs).
Proof.
  intros m s0 nt f q xs Hinj Hs0.
  rewrite to_cfg_left_rev, W_rev, pwb_reverse. apply to_cfg_right_state; assumption.
Qed.

Theorem to_cfg_left_start : forall (m : wfsa S) (s0 : nat) (nt : nat -> nat) (f : nat) (xs : list nat),
  (forall p p', nt p = nt p' -> p = p') -> (forall p, nt p <> s0) ->
  W (to_cfg_left s0 nt m) (Datatypes.S (Datatypes.S f)) s0 xs = pathsum_b m f xs.
Proof.
  intros m s0 nt f xs Hinj Hs0.
  rewrite to_cfg_left_rev, W_rev, (to_cfg_right_start _ s0 nt f (rev xs) Hinj Hs0).
  apply bsum_ext; intros e _. rewrite pwb_reverse. reflexivity.
Qed.

End ConvertProofs.
Arguments pwb {S} m fuel q rxs. Arguments pathsum_b {S} m fuel xs.

(* WFSA.to_cfg as regenerated from wfsa/base.py (gen/Gen_ToCfg.v) is the model of model/WfsaEps.v. *)
Theorem gen_to_cfg_right_model : forall (S : SR) (s0 : nat) (nt : nat -> nat) (m : wfsa S),
  gen_to_cfg_right S s0 nt m = to_cfg_right s0 nt m.
Proof. reflexivity. Qed.

Theorem gen_to_cfg_left_model : forall (S : SR) (s0 : nat) (nt : nat -> nat) (m : wfsa S),
  gen_to_cfg_left S s0 nt m = to_cfg_left s0 nt m.
Proof. reflexivity. Qed.

Print Assumptions to_cfg_right_state.
Print Assumptions to_cfg_right_start.
Print Assumptions to_cfg_left_state.
Print Assumptions to_cfg_left_start.
Print Assumptions gen_to_cfg_right_model.
Print Assumptions gen_to_cfg_left_model.

Section BytesProofs.
Variable S : SR.
Variable enc : nat -> list nat.
Variable fresh : nat -> nat -> nat.

Lemma match_nonnil {A B} (l : list A) (X Y : B) :
  l <> [] -> match l with [] => Y | _ :: _ => X end = X.
Proof. destruct l; [congruence|reflexivity]. Qed.

Lemma skipn_cons_S (l : list nat) : forall n x t,
  skipn n l = x :: t -> skipn (Datatypes.S n) l = t.
Proof.
  induction l as [|y l IH]; intros n x t H.
  - destruct n; discriminate.
  - destruct n as [|n].
    + cbn [skipn] in *. injection H as _ H. destruct l; exact H.
    + cbn [skipn] in H. change (skipn (Datatypes.S (Datatypes.S n)) (y :: l)) with (skipn (Datatypes.S n) l).
      apply (IH n x t H).
Qed.

Lemma strip_length (c : list nat) : forall bs r,
  strip c bs = Some r -> length bs = (length c + length r)%nat.
Proof.
  induction c as [|a c IH]; intros bs r H.
  - cbn [strip] in H. injection H as H; subst; reflexivity.
  - destruct bs as [|b t]; cbn [strip] in H; [discriminate|].
    destruct (Nat.eqb a b); [|discriminate].
    cbn [length]. rewrite (IH t r H). reflexivity.
Qed.

Lemma bsum_combine_snd {A} (l : list A) s (f : A -> S) :
  bsum (combine (seq s (length l)) l) (fun ka => f (snd ka)) = bsum l f.
Proof. rewrite <- (bsum_map S _ snd f), map_snd_combine_seq. reflexivity. Qed.

Lemma bsum_combine_delta {A} (l : list A) s k x (H : nat * A -> S) :
  In (k, x) (combine (seq s (length l)) l) ->
  bsum (combine (seq s (length l)) l) (fun ka => if Nat.eqb (fst ka) k then H ka else 0) = H (k, x).
Proof.
  intros Hin. rewrite (bsum_single S _ (k, x)); [cbn [fst]; rewrite Nat.eqb_refl; reflexivity| |exact Hin|].
  - apply NoDup_combine_l, seq_NoDup.
  - intros [k' y] Hin' Hne. cbn [fst]. destruct (Nat.eqb_spec k' k) as [->|_]; [|reflexivity].
    destruct Hne. f_equal.
    apply in_combine_seq_nth in Hin. destruct Hin as [n [En Hn]].
    apply in_combine_seq_nth in Hin'. destruct Hin' as [n' [En' Hn']].
    replace n' with n in Hn' by lia. congruence.
Qed.

Lemma chain_one k i p c0 q (w : S) : chain fresh k i p [c0] q w = [(p, Some c0, q, w)].
Proof. reflexivity. Qed.
Lemma chain_cons2 k i p c0 c1 rest q (w : S) :
  chain fresh k i p (c0 :: c1 :: rest) q w
  = (p, Some c0, fresh k i, 1) :: chain fresh k (Datatypes.S i) (fresh k i) (c1 :: rest) q w.
Proof. reflexivity. Qed.

Section Inj.
Hypothesis fresh_inj : forall k i k' i', fresh k i = fresh k' i' -> k = k' /\ i = i'.

Section Chain.
Variables (k q : nat) (w : S) (b : nat) (G : nat -> S).

(* What a chain that still has to read the code word c contributes at its first state when the
   byte b is read and the machine continues with G: nothing unless c starts with b; then G at
   the next chain state (fresh k i), or, on the last byte, the arc weight w times G at the
   target q of the expanded arc. *)
Definition hv (c : list nat) (i : nat) : S :=
  match c with
  | [] => 0
  | r :: rest => if Nat.eqb r b then match rest with [] => w * G q | _ :: _ => G (fresh k i) end else 0
  end.

Lemma chain_off s : forall c i p,
  p <> s -> (forall j, i <= j -> fresh k j <> s) ->
  bsum (chain fresh k i p c q w) (astep s b G) = 0.
Proof.
  induction c as [|c0 c IH]; intros i p Hp Hf; [reflexivity|].
  destruct c as [|c1 rest].
  - rewrite chain_one, bsum_cons, bsum_nil. rewrite astep_off by exact Hp. apply sadd_0_l.
  - rewrite chain_cons2, bsum_cons. rewrite astep_off by exact Hp.
    rewrite IH; [apply sadd_0_l| |].
    + apply Hf. lia.
    + intros j Hj. apply Hf. lia.
Qed.

Lemma astep_at p c0 d (u : S) : astep p b G (p, Some c0, d, u) = if Nat.eqb c0 b then u * G d else 0.
Proof.
  unfold astep. rewrite asrc_mk, albl_mk, adst_mk, awt_mk, Nat.eqb_refl.
  cbn [andb lbl_eqb]. rewrite (Nat.eqb_sym b c0). reflexivity.
Qed.

Lemma chain_head : forall c i p,
  (forall j, i <= j -> fresh k j <> p) ->
  bsum (chain fresh k i p c q w) (astep p b G) = hv c i.
Proof.
  intros [|c0 [|c1 rest]] i p Hf; [reflexivity| |].
  - rewrite chain_one, bsum_cons, bsum_nil, astep_at, sadd_0_r. reflexivity.
  - rewrite chain_cons2, bsum_cons, astep_at, chain_off.
    + rewrite sadd_0_r. unfold hv. destruct (Nat.eqb c0 b); [apply smul_1_l|reflexivity].
    + apply Hf. lia.
    + intros j Hj. apply Hf. lia.
Qed.

(* at the inner state fresh k j of a chain started at index i, the code word left to read is
   c without its first j - i + 1 bytes *)
Lemma chain_inner : forall c i p j,
  i <= j -> p <> fresh k j ->
  bsum (chain fresh k i p c q w) (astep (fresh k j) b G)
  = hv (skipn (Datatypes.S (j - i)) c) (Datatypes.S j).
Proof.
  induction c as [|c0 c IH]; intros i p j Hij Hp; [reflexivity|].
  destruct c as [|c1 rest].
  - rewrite chain_one, bsum_cons, bsum_nil. rewrite astep_off by exact Hp.
    cbn [skipn]. rewrite skipn_nil. apply sadd_0_l.
  - rewrite chain_cons2, bsum_cons. rewrite astep_off by exact Hp.
    change (skipn (Datatypes.S (j - i)) (c0 :: c1 :: rest)) with (skipn (j - i) (c1 :: rest)).
    destruct (Nat.eq_dec i j) as [E | E].
    + subst j. rewrite Nat.sub_diag. cbn [skipn].
      rewrite chain_head; [apply sadd_0_l|].
      intros j Hj Heq. apply fresh_inj in Heq. lia.
    + rewrite IH.
      * replace (j - i)%nat with (Datatypes.S (j - Datatypes.S i)) by lia. apply sadd_0_l.
      * lia.
      * intros Heq. apply fresh_inj in Heq. lia.
Qed.

End Chain.

Section Machine.
Variable m : wfsa S.
Variable V : list nat.
Hypothesis V_nodup : NoDup V.
(* to_bytes keeps epsilon arcs as they are (as the Python code does); the theorem is about
   machines without them, whose labels all lie in V *)
Hypothesis lbl_in_V : forall ar, In ar (warcs m) -> exists a, albl ar = Some a /\ In a V.
Hypothesis enc_nonempty : forall a, In a V -> enc a <> [].
Hypothesis fresh_new : forall k i q, fresh k i = q ->
  ~ (In q (map fst (winit m)) \/ In q (map fst (wfinal m)) \/
     exists ar, In ar (warcs m) /\ (asrc ar = q \/ adst ar = q)).

Let B : wfsa S := to_bytes enc fresh m.
Let IA : list (nat * arc S) := combine (seq O (length (warcs m))) (warcs m).

Definition orig (q : nat) : Prop := forall k i, fresh k i <> q.

Lemma orig_init e : In e (winit m) -> orig (fst e).
Proof.
  intros He k i Hf. apply (fresh_new k i (fst e) Hf). left. apply in_map, He.
Qed.
Lemma orig_src ar : In ar (warcs m) -> orig (asrc ar).
Proof.
  intros Har k i Hf. apply (fresh_new k i (asrc ar) Hf). right; right.
  exists ar. split; [exact Har|left; reflexivity].
Qed.
Lemma orig_dst ar : In ar (warcs m) -> orig (adst ar).
Proof.
  intros Har k i Hf. apply (fresh_new k i (adst ar) Hf). right; right.
  exists ar. split; [exact Har|right; reflexivity].
Qed.
Lemma fresh_not_final k i : wget (wfinal m) (fresh k i) = 0.
Proof.
  apply wget_notin. intros H. apply (fresh_new k i _ eq_refl). right; left. exact H.
Qed.

Lemma warcs_B : warcs B = flat_map (fun ka => expand_arc enc fresh (fst ka) (snd ka)) IA.
Proof. reflexivity. Qed.

Lemma IA_in k ar : In (k, ar) IA -> In ar (warcs m).
Proof. intros H. apply in_combine_r in H. exact H. Qed.

Lemma pw_B_cons s b bs' :
  pw B s (b :: bs')
  = bsum IA (fun ka => bsum (expand_arc enc fresh (fst ka) (snd ka)) (astep s b (fun q => pw B q bs'))).
Proof.
  change (pw B s (b :: bs')) with (bsum (warcs B) (astep s b (fun q => pw B q bs'))).
  rewrite warcs_B, bsum_flat_map. reflexivity.
Qed.

Lemma expand_lbl k (ar : arc S) a : albl ar = Some a ->
  expand_arc enc fresh k ar = chain fresh k O (asrc ar) (enc a) (adst ar) (awt ar).
Proof. intros H. unfold expand_arc. rewrite H. reflexivity. Qed.

(* the value of B at state d once the code word c has been read off bs (0 if bs does not start
   with c): what an arc labelled by the symbol of c is worth, up to its weight *)
Definition after (c : list nat) (d : nat) (bs : list nat) : S :=
  match strip c bs with Some r => pw B d r | None => 0 end.

(* at a chain state the rest of the code word must follow *)
Lemma pw_B_chain k ar a :
  In (k, ar) IA -> albl ar = Some a ->
  forall rem j bs, rem <> [] -> skipn (Datatypes.S j) (enc a) = rem ->
  pw B (fresh k j) bs = awt ar * after rem (adst ar) bs.
Proof.
  intros Hin Ha. induction rem as [|r rest IH]; intros j bs Hne Hsk; [congruence|].
  unfold after. destruct bs as [|b bs'].
  - cbn [pw strip]. change (wfinal B) with (wfinal m). rewrite fresh_not_final. symmetry. apply smul_0_r.
  - rewrite pw_B_cons.
    transitivity (bsum IA (fun ka => if Nat.eqb (fst ka) k
        then bsum (expand_arc enc fresh (fst ka) (snd ka)) (astep (fresh k j) b (fun q => pw B q bs'))
        else 0)).
    + apply bsum_ext. intros [k' ar'] Hin'. cbn [fst snd].
      destruct (Nat.eqb k' k) eqn:E; [reflexivity|]. apply Nat.eqb_neq in E.
      pose proof (IA_in _ _ Hin') as Har'.
      destruct (lbl_in_V ar' Har') as [a' [Ha' _]].
      rewrite (expand_lbl k' ar' a' Ha'). apply chain_off.
      * intros Heq. exact (orig_src ar' Har' k j (eq_sym Heq)).
      * intros j' _ Heq. apply fresh_inj in Heq. destruct Heq as [Hk _]. exact (E Hk).
    + unfold IA. rewrite (bsum_combine_delta (warcs m) O k ar _ Hin). cbn [fst snd].
      rewrite (expand_lbl k ar a Ha). rewrite chain_inner.
      * rewrite Nat.sub_0_r, Hsk. unfold hv. cbn [strip].
        destruct (Nat.eqb r b); [|symmetry; apply smul_0_r].
        destruct rest as [|r2 rest'].
        -- reflexivity.
        -- apply IH; [discriminate|]. apply (skipn_cons_S _ _ _ _ Hsk).
      * lia.
      * intros Heq. exact (orig_src ar (IA_in _ _ Hin) k j (eq_sym Heq)).
Qed.

Lemma pw_B_orig q b bs' : orig q ->
  pw B q (b :: bs')
  = outs (warcs m) q (fun ar =>
      match albl ar with Some a => awt ar * after (enc a) (adst ar) (b :: bs') | None => 0 end).
Proof.
  intros Hq. rewrite pw_B_cons. unfold outs.
  rewrite <- (bsum_combine_snd (warcs m) O). fold IA.
  apply bsum_ext. intros [k ar] Hin. cbn [fst snd].
  pose proof (IA_in _ _ Hin) as Har.
  destruct (lbl_in_V ar Har) as [a [Ha HaV]].
  pose proof (enc_nonempty a HaV) as Hne.
  rewrite (expand_lbl k ar a Ha). rewrite Ha.
  destruct (Nat.eqb (asrc ar) q) eqn:E.
  - apply Nat.eqb_eq in E. subst q. rewrite chain_head.
    + destruct (enc a) as [|c0 rest] eqn:Ec; [congruence|].
      unfold hv, after. cbn [strip]. destruct (Nat.eqb c0 b); [|symmetry; apply smul_0_r].
      destruct rest as [|c1 rest']; [reflexivity|].
      apply (pw_B_chain k ar a Hin Ha (c1 :: rest') O bs'); [discriminate|].
      rewrite Ec. reflexivity.
    + intros j _. apply Hq.
  - apply Nat.eqb_neq in E. apply chain_off; [exact E|]. intros j _. apply Hq.
Qed.

Lemma decodings_cons f b bs' :
  decodings enc V (Datatypes.S f) (b :: bs')
  = flat_map (fun a => match enc a with
                       | [] => []
                       | _ :: _ => match strip (enc a) (b :: bs') with
                                   | Some rest => map (cons a) (decodings enc V f rest)
                                   | None => []
                                   end
                       end) V.
Proof.
  cbn [decodings]. apply flat_map_ext. intros a. destruct (enc a); reflexivity.
Qed.

Lemma pw_decode : forall fuel bs q, orig q -> length bs <= fuel ->
  pw B q bs = bsum (decodings enc V fuel bs) (fun xs => pw m q xs).
Proof.
  induction fuel as [|f IH]; intros [|b bs'] q Hq Hf; try (cbn [length] in Hf; lia);
    try (cbn [decodings]; rewrite bsum_cons, bsum_nil; cbn [pw]; change (wfinal B) with (wfinal m); symmetry; apply sadd_0_r).
  rewrite (pw_B_orig q b bs' Hq), decodings_cons, bsum_flat_map.
  remember (b :: bs') as bs eqn:Hbs.
  assert (Hlen : length bs = Datatypes.S (length bs')) by (subst bs; reflexivity). clear Hbs.
  rewrite <- (astep_by_label S V (warcs m) q (fun a d => after (enc a) d bs) V_nodup lbl_in_V).
  apply bsum_ext; intros a HaV. rewrite (match_nonnil (enc a) _ _ (enc_nonempty a HaV)).
  unfold after. destruct (strip (enc a) bs) as [r|] eqn:Es.
  - rewrite bsum_map. symmetry.
    apply (eq_trans (astep_bsum S (decodings enc V f r) (warcs m) q a (fun xs d => pw m d xs))).
    apply bsum_ext; intros ar Har. unfold astep.
    destruct (Nat.eqb (asrc ar) q && lbl_eqb (albl ar) a); [|reflexivity].
    pose proof (strip_length _ _ _ Es) as Hsl.
    pose proof (enc_nonempty a HaV) as Hne. destruct (enc a); [congruence|]. cbn [length] in Hsl.
    rewrite <- IH; [reflexivity|apply orig_dst; exact Har|lia].
  - rewrite bsum_nil. apply bsum_zero; intros ar _. unfold astep.
    destruct (Nat.eqb (asrc ar) q && lbl_eqb (albl ar) a); [apply smul_0_r|reflexivity].
Qed.

Lemma to_bytes_pathsum_sec bs fuel : length bs <= fuel ->
  pathsum B bs = bsum (decodings enc V fuel bs) (fun xs => pathsum m xs).
Proof.
  intros Hf. unfold pathsum. change (winit B) with (winit m).
  rewrite bsum_swap. apply bsum_ext. intros e He.
  rewrite (pw_decode fuel bs (fst e) (orig_init e He) Hf).
  rewrite bsum_mul_l. reflexivity.
Qed.

End Machine.
End Inj.

Theorem to_bytes_pathsum : forall (m : wfsa S) (V : list nat) (bs : list nat) (fuel : nat),
  NoDup V ->
  (forall ar, In ar (warcs m) -> exists a, albl ar = Some a /\ In a V) ->
  (forall a, In a V -> enc a <> []) ->
  (forall k i k' i', fresh k i = fresh k' i' -> k = k' /\ i = i') ->
  (forall k i q, fresh k i = q ->
     ~ (In q (map fst (winit m)) \/ In q (map fst (wfinal m)) \/
        exists ar, In ar (warcs m) /\ (asrc ar = q \/ adst ar = q))) ->
  length bs <= fuel ->
  pathsum (to_bytes enc fresh m) bs = bsum (decodings enc V fuel bs) (fun xs => pathsum m xs).
Proof.
  intros m V bs fuel HV Hl He Hi Hn Hf.
  apply to_bytes_pathsum_sec; assumption.
Qed.

End BytesProofs.

Print Assumptions to_bytes_pathsum.
