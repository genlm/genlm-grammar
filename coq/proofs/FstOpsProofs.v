(* Hand-written models of FST.T (transpose, model/Fst.v), FST.diag and FST.project
   (genlm/grammar/fst.py): each is a single loop copying the arcs with the labels
   swapped / duplicated / projected, and copying initial and final weights.
   - transposing swaps the two tapes of the relation;
   - the diagonal of an epsilon-free acceptor relates xs to xs with the acceptor's
     weight and nothing else;
   - projecting on the input tape sums the relation over all outputs (for a machine that reads a
     symbol on every arc: a path on xs has |xs| arcs and writes at most |xs| symbols, which is where
     the fuel and the bound on the outputs come from);
   - FST.from_string is the diagonal of the string automaton;
   - the definitions regenerated from fst.py (gen/Gen_FstOps.v) are these models. *)
From Coq Require Import List Arith Bool Lia BinNat.
From GV.lib Require Import Semiring BigSum.
From GV.model Require Import Cfg Wfsa Fst FstCompose.
From GV.gen Require Import Gen_FstOps.
From GV.proofs Require Import ProductProofs StarStringProofs.
Import ListNotations.
Local Open Scope sr_scope.

Section FstOps.
Variable S : SR.

Definition diag (A : wfsa S) : fst_t S :=
  mkT (winit A) (wfinal A) (map (fun a => (asrc a, albl a, albl a, adst a, awt a)) (warcs A)).
Definition project_in (m : fst_t S) : wfsa S :=
  mkW (tinit m) (tfinal m) (map (fun a => (tsrc a, tin a, tdst a, twt a)) (tarcs m)).
Definition project_out (m : fst_t S) : wfsa S := project_in (transpose m).

Lemma trelf_transpose (m : fst_t S) : forall fuel q xs ys,
  trelf (transpose m) fuel q xs ys = trelf m fuel q ys xs.
Proof.
  induction fuel as [|f IH]; intros q xs ys.
  - rewrite !trelf_O. destruct xs; destruct ys; reflexivity.
  - rewrite !trelf_S. f_equal.
    + destruct xs; destruct ys; reflexivity.
    + unfold transpose at 1. cbn [tarcs]. rewrite bsum_map. apply bsum_ext; intros a _.
      rewrite arcterm_mk. unfold arcterm.
      destruct (Nat.eqb (tsrc a) q); [|reflexivity].
      destruct (eat (tout a) xs) as [xs'|]; destruct (eat (tin a) ys) as [ys'|]; try reflexivity.
      rewrite IH. reflexivity.
Qed.

Theorem trel_transpose : forall (m : fst_t S) fuel xs ys,
  trel (transpose m) fuel xs ys = trel m fuel ys xs.
Proof.
  intros m fuel xs ys. unfold trel.
  change (tinit (transpose m)) with (tinit m).
  apply bsum_ext; intros e _. rewrite trelf_transpose. reflexivity.
Qed.

Theorem transpose_involutive : forall (m : fst_t S), transpose (transpose m) = m.
Proof.
  intros [i f arcs]. unfold transpose. cbn [tinit tfinal tarcs].
  rewrite map_map, (map_ext _ (fun a => a)), map_id; [reflexivity|].
  intros a. unfold tsrc, tin, tout, tdst, twt. cbn [fst snd]. rewrite <- !surjective_pairing. reflexivity.
Qed.

Lemma tarcs_diag (A : wfsa S) :
  tarcs (diag A) = map (fun a : arc S => (asrc a, albl a, albl a, adst a, awt a)) (warcs A).
Proof. reflexivity. Qed.

(* every arc of the diagonal reads a symbol and writes a symbol *)
Lemma diag_arcs (A : wfsa S) : eps_free A ->
  (forall ar, In ar (tarcs (diag A)) -> exists c, tin ar = Some c)
  /\ (forall ar, In ar (tarcs (diag A)) -> exists c, tout ar = Some c).
Proof.
  intros HA. split; intros ar Har; rewrite tarcs_diag in Har; apply in_map_iff in Har; destruct Har as [x [<- Hx]];
    specialize (HA x Hx); (destruct (albl x) as [c|]; [exists c; reflexivity|congruence]).
Qed.

Lemma diag_state (A : wfsa S) : eps_free A ->
  forall xs fuel q ys, length xs <= fuel ->
  trelf (diag A) fuel q xs ys = if list_eqb Nat.eqb xs ys then pw A q xs else 0.
Proof.
  intros HA. destruct (diag_arcs A HA) as [Hr Hw].
  induction xs as [|a xs' IH]; intros fuel q ys Hlen.
  - rewrite (trelf_nil_l S _ fuel q ys Hr). destruct ys; reflexivity.
  - destruct ys as [|b ys']; [exact (trelf_nil_r S _ fuel q _ Hw)|].
    destruct fuel as [|f]; [simpl in Hlen; lia|].
    assert (Hf : length xs' <= f) by (simpl in Hlen; lia).
    rewrite trelf_S_cons_l, tarcs_diag, bsum_map. cbn [list_eqb pw].
    rewrite (bsum_ext S (warcs A) _ (fun ar =>
      if Nat.eqb a b && list_eqb Nat.eqb xs' ys' then
        (if Nat.eqb (asrc ar) q && lbl_eqb (albl ar) a then awt ar * pw A (adst ar) xs' else 0)
      else 0)).
    + destruct (Nat.eqb a b && list_eqb Nat.eqb xs' ys'); [reflexivity|apply bsum_const_zero].
    + intros x Hx. specialize (HA x Hx). destruct (albl x) as [c|] eqn:E; [|congruence].
      rewrite arcterm_ll, IH, smul_if_r by assumption. cbn [lbl_eqb]. rewrite (Nat.eqb_sym c a).
      destruct (Nat.eqb_spec a c) as [<-|_].
      * destruct (Nat.eqb (asrc x) q); destruct (Nat.eqb a b); destruct (list_eqb Nat.eqb xs' ys'); reflexivity.
      * rewrite !andb_false_r. destruct (Nat.eqb a b && list_eqb Nat.eqb xs' ys'); reflexivity.
Qed.

Theorem diag_relation : forall (A : wfsa S), eps_free A ->
  forall fuel xs ys, length xs <= fuel ->
  trel (diag A) fuel xs ys = if list_eqb Nat.eqb xs ys then pathsum A xs else 0.
Proof.
  intros A HA fuel xs ys Hlen. unfold trel, pathsum.
  change (tinit (diag A)) with (winit A).
  destruct (list_eqb Nat.eqb xs ys) eqn:E.
  - apply bsum_ext; intros e _. rewrite (diag_state A HA) by assumption. rewrite E. reflexivity.
  - apply bsum_zero; intros e _. rewrite (diag_state A HA) by assumption. rewrite E. apply smul_0_r.
Qed.

(* FST.from_string (model fst_of_string in model/FstCompose.v) is the diagonal of the string
   automaton: it relates x to x with weight one and nothing else. *)
Lemma from_string_eps_free (x : list nat) (w : S) : eps_free (from_string x w).
Proof.
  intros ar Har. unfold from_string in Har; cbn [warcs] in Har.
  apply in_map_iff in Har. destruct Har as [ia [<- _]]. discriminate.
Qed.

Theorem diag_string_relation : forall (x : list nat) (fuel : nat) (xs ys : list nat), length xs <= fuel ->
  trel (diag (from_string x 1)) fuel xs ys = if list_eqb Nat.eqb xs ys && list_eqb Nat.eqb xs x then 1 else 0.
Proof.
  intros x fuel xs ys Hl.
  rewrite (diag_relation (from_string x 1) (from_string_eps_free x 1) fuel xs ys Hl), from_string_weight.
  destruct (list_eqb Nat.eqb xs ys); destruct (list_eqb Nat.eqb xs x); reflexivity.
Qed.

Lemma fst_of_string_is_diag (x : list nat) : @fst_of_string S x = diag (from_string x 1).
Proof.
  unfold fst_of_string, diag, from_string. cbn [winit wfinal warcs]. rewrite map_map. reflexivity.
Qed.

Theorem fst_of_string_relation : forall (x : list nat) (fuel : nat) (xs ys : list nat), length xs <= fuel ->
  trel (@fst_of_string S x) fuel xs ys = if list_eqb Nat.eqb xs ys && list_eqb Nat.eqb xs x then 1 else 0.
Proof. intros x fuel xs ys Hl. rewrite fst_of_string_is_diag. apply diag_string_relation, Hl. Qed.

Lemma eat_length (l : option nat) (ys zs : list nat) :
  eat l ys = Some zs -> length ys <= Datatypes.S (length zs).
Proof.
  destruct l as [c|]; simpl.
  - destruct ys as [|d t]; [discriminate|]. destruct (Nat.eqb c d); [|discriminate].
    intros H; injection H as <-. simpl. lia.
  - intros H; injection H as <-. lia.
Qed.

Section Project.
Variables (V : list nat) (m : fst_t S).
Hypothesis HV : NoDup V.
Hypothesis Hin : forall ar, In ar (tarcs m) -> exists x, tin ar = Some x.
Hypothesis Hout : forall ar y, In ar (tarcs m) -> tout ar = Some y -> In y V.

(* every arc reads one symbol and writes at most one: no output longer than the input *)
Lemma trelf_zero_long : forall f q xs ys, length xs < length ys -> trelf m f q xs ys = 0.
Proof.
  induction f as [|f IH]; intros q xs [|b ys] Hlen; try (simpl in Hlen; lia).
  - rewrite trelf_O. destruct xs; apply sadd_0_l.
  - rewrite trelf_S_cons_r. apply bsum_zero. intros ar Har. destruct (Hin ar Har) as [c Hc].
    destruct xs as [|d xs']; [eapply arcterm_in_nil; eassumption|].
    destruct (Nat.eq_dec c d) as [->|Hne]; [|eapply arcterm_in_ne; eassumption].
    rewrite (arcterm_in_eq S m f q d xs' (b :: ys) ar Hc).
    destruct (Nat.eqb (tsrc ar) q); [|reflexivity].
    destruct (eat (tout ar) (b :: ys)) as [zs|] eqn:Ee; [|reflexivity].
    apply eat_length in Ee. rewrite IH; [apply smul_0_r|]. simpl in Hlen, Ee. lia.
Qed.

Lemma bsum_words_le_long (n : nat) (g : list nat -> S) :
  (forall w, n < length w -> g w = 0) ->
  bsum (words_le V (Datatypes.S n)) g = bsum (words_le V n) g.
Proof.
  intros Hg.
  change (words_le V (Datatypes.S n)) with (words_le V n ++ words_eq V (Datatypes.S n)).
  rewrite bsum_app, (bsum_zero S (words_eq V (Datatypes.S n))); [apply sadd_0_r|].
  intros w Hw. apply Hg. rewrite (words_eq_length V _ w Hw). lia.
Qed.

Lemma project_arc (n : nat) (q a : nat) (xs' : list nat) (ar : tarc S) :
  length xs' = n -> In ar (tarcs m) ->
  bsum (words_le V (Datatypes.S n)) (fun ys => arcterm S m n q (a :: xs') ys ar) =
  if Nat.eqb (tsrc ar) q && lbl_eqb (tin ar) a
  then twt ar * bsum (words_le V n) (fun ys => trelf m n (tdst ar) xs' ys) else 0.
Proof.
  intros Hn Har. destruct (Hin ar Har) as [c Hc]. rewrite Hc. unfold lbl_eqb.
  destruct (Nat.eqb_spec a c) as [Ea|Ea].
  - subst c. rewrite andb_true_r.
    rewrite (bsum_ext S _ _ _ (fun ys _ => arcterm_in_eq S m n q a xs' ys ar Hc)).
    destruct (Nat.eqb (tsrc ar) q); [|apply bsum_const_zero].
    destruct (tout ar) as [y|] eqn:Ey.
    + assert (Hy : In y V) by (eapply Hout; eassumption).
      rewrite bsum_words_le_S. cbv beta. rewrite eat_some_nil.
      rewrite (bsum_single S V y _ HV Hy).
      * rewrite <- bsum_mul_l.
        rewrite (bsum_ext S (words_le V n) _ (fun w => twt ar * trelf m n (tdst ar) xs' w)).
        -- apply sadd_0_l.
        -- intros w _. rewrite eat_some_cons, Nat.eqb_refl. reflexivity.
      * intros c _ Hne. apply bsum_zero; intros w _. rewrite eat_some_cons.
        destruct (Nat.eqb_spec y c) as [E|E]; [exfalso; apply Hne; congruence|reflexivity].
    + rewrite bsum_words_le_long.
      * cbn [eat]. apply bsum_mul_l.
      * intros w Hw. cbn [eat]. rewrite trelf_zero_long by lia. apply smul_0_r.
  - rewrite andb_false_r. apply bsum_zero; intros ys _.
    apply (arcterm_in_ne S m n q c a xs' ys ar Hc). congruence.
Qed.

Lemma project_state : forall xs q,
  pw (project_in m) q xs = bsum (words_le V (length xs)) (fun ys => trelf m (length xs) q xs ys).
Proof.
  induction xs as [|a xs' IH]; intros q.
  - cbn [length]. change (words_le V O) with [@nil nat]. rewrite bsum_cons, bsum_nil, trelf_O.
    cbn [pw]. change (wfinal (project_in m)) with (tfinal m). unfold wget, fget. rewrite !sadd_0_r. reflexivity.
  - cbn [length pw].
    change (warcs (project_in m)) with (map (fun a : tarc S => (tsrc a, tin a, tdst a, twt a)) (tarcs m)).
    rewrite bsum_map.
    rewrite (bsum_ext S _ _ _ (fun ys _ => trelf_S_cons_l S m (length xs') q a xs' ys)).
    rewrite bsum_swap.
    apply bsum_ext; intros ar Har.
    rewrite (project_arc (length xs') q a xs' ar eq_refl Har).
    unfold asrc, albl, adst, awt. cbn [fst snd]. rewrite IH. reflexivity.
Qed.

End Project.

Theorem project_in_pathsum : forall (V : list nat) (m : fst_t S),
  NoDup V ->
  (forall ar, In ar (tarcs m) -> exists x, tin ar = Some x) ->
  (forall ar y, In ar (tarcs m) -> tout ar = Some y -> In y V) ->
  forall xs, pathsum (project_in m) xs =
             bsum (words_le V (length xs)) (fun ys => trel m (length xs) xs ys).
Proof.
  intros V m HV Hin Hout xs. unfold pathsum, trel.
  change (winit (project_in m)) with (tinit m).
  rewrite (bsum_swap S (words_le V (length xs)) (tinit m)
             (fun ys e => snd e * trelf m (length xs) (fst e) xs ys)).
  apply bsum_ext; intros e _.
  rewrite (project_state V m HV Hin Hout). rewrite bsum_mul_l. reflexivity.
Qed.

Corollary project_out_pathsum : forall (V : list nat) (m : fst_t S),
  NoDup V ->
  (forall ar, In ar (tarcs m) -> exists y, tout ar = Some y) ->
  (forall ar x, In ar (tarcs m) -> tin ar = Some x -> In x V) ->
  forall ys, pathsum (project_out m) ys =
             bsum (words_le V (length ys)) (fun xs => trel m (length ys) xs ys).
Proof.
  intros V m HV Hout Hin ys. unfold project_out.
  rewrite (project_in_pathsum V (transpose m) HV).
  - apply bsum_ext; intros xs _. apply trel_transpose.
  - intros ar Har. apply in_map_iff in Har. destruct Har as [a [<- Ha]]. exact (Hout a Ha).
  - intros ar x Har. apply in_map_iff in Har. destruct Har as [a [<- Ha]]. exact (Hin a x Ha).
Qed.

(* FST.T, FST.diag and FST.project as regenerated from fst.py (coq/gen/Gen_FstOps.v) coincide with
   the models above. *)
Lemma gen_transpose_model (m : fst_t S) : gen_transpose S m = transpose m.
Proof. reflexivity. Qed.

Lemma gen_diag_model (A : wfsa S) : gen_diag S A = diag A.
Proof. reflexivity. Qed.

Lemma gen_project_in_model (m : fst_t S) : gen_project S true m = project_in m.
Proof. reflexivity. Qed.

Lemma gen_project_out_model (m : fst_t S) : gen_project S false m = project_out m.
Proof.
  unfold gen_project, project_out, project_in, transpose. cbn [tinit tfinal tarcs].
  rewrite map_map. f_equal.
Qed.

End FstOps.

Arguments diag {S} A.
Arguments project_in {S} m.
Arguments project_out {S} m.

Print Assumptions trel_transpose.
Print Assumptions transpose_involutive.
Print Assumptions diag_relation.
Print Assumptions fst_of_string_relation.
Print Assumptions project_in_pathsum.
Print Assumptions project_out_pathsum.
Print Assumptions gen_project_out_model.

Local Close Scope sr_scope.
Definition ex_m : fst_t NSR :=
  @mkT NSR [(0, 1%N)] [(2, 1%N)] [(0, Some 0, Some 2, 1, 2%N); (1, Some 1, None, 2, 3%N)].
Definition ex_A : wfsa NSR := @mkW NSR [(0, 1%N)] [(0, 1%N)] [(0, Some 0, 0, 2%N)].

Definition ex_A' : fst_t NSR := diag ex_A.

Example FstOps_nonvacuous :
  trel ex_m 3 [0; 1] [2] = 6%N /\
  trel (transpose ex_m) 3 [2] [0; 1] = 6%N /\
  trel (transpose ex_m) 3 [0; 1] [2] = 0%N /\
  trel (diag ex_A) 3 [0; 0] [0; 0] = 4%N /\
  trel (diag ex_A) 3 [0; 0] [0] = 0%N /\
  pathsum (project_in ex_m) [0; 1] = 6%N /\
  pathsum (project_out ex_A') [0; 0] = 4%N.
Proof. vm_compute. repeat split; reflexivity. Qed.
Print Assumptions FstOps_nonvacuous.
