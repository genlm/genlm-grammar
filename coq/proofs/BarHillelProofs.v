(* The Bar-Hillel product  CFG @ FST  (model/BarHillel.v) of a grammar G with a
   letter-to-letter transducer M has the relational-composition semantics at the level of
   the solutions of the grammar equations: if f solves G then the valuation
       Fv (nt p X q) ys = sum over xs in V^|ys| of  f X xs * Tw p q xs ys
       Fv (tm p a q) ys = Tw p q [a] ys
       Fv s' ys         = sum over i, k of  wi * wk * Fv (nt i S k) ys
       Fv Z ys          = 0   for every other Z
   solves the product grammar (at EVERY symbol), and
       Fv s' ys = sum over xs in V^|ys| of  f S xs * M(xs, ys).
   Valid for every commutative semiring, cyclic grammars included.

   Hypotheses of the theorem (section Main):
     - the naming nt, tm, s' of the product nonterminals is injective with pairwise
       disjoint images;
     - NoDup states, NoDup V; the source and target of every arc are in states and its
       input symbol is in V; the initial and final states are in states;
     - the terminals of G are in V;
     - f solves G.
   The proof: a path for a concatenation passes through a middle state (Tw_app); the pairs
   of words whose lengths follow a cut of ys are the cuts of the words of length |ys|
   (words_split); hence the image  img p q h ys = sum over xs of h xs * Tw p q xs ys  of a
   weighted language h turns a Cauchy product into a product over middle states
   (img_conv), and a threaded body has the image of the body's language (key_lemma).  Tw and
   Mrel are the path sums trelf / trel of model/Fst.v (trel_lift). *)
From Coq Require Import List Arith Bool Lia BinNat Cantor.
From GV.lib Require Import Semiring BigSum.
From GV.model Require Import Cfg Fst BarHillel.
From GV.proofs Require Import UnfoldProofs CkyProofs FoldProofs ProductProofs SubstProofs.
Import ListNotations.
Local Open Scope sr_scope.

Local Notation Sn := Datatypes.S.

Definition triples (l1 l2 l3 : list nat) : list (nat * nat * nat) :=
  flat_map (fun p => flat_map (fun X => map (fun q => (p, X, q)) l3) l2) l1.

Lemma in_triples l1 l2 l3 p X q :
  In (p, X, q) (triples l1 l2 l3) <-> In p l1 /\ In X l2 /\ In q l3.
Proof.
  unfold triples. split.
  - intros H. apply in_flat_map in H. destruct H as [p' [Hp H]].
    apply in_flat_map in H. destruct H as [X' [HX H]].
    apply in_map_iff in H. destruct H as [q' [E Hq]]. injection E as -> -> ->. auto.
  - intros [Hp [HX Hq]]. apply in_flat_map. exists p. split; [exact Hp|]. apply in_flat_map.
    exists X. split; [exact HX|]. apply in_map_iff. exists q. split; [reflexivity|exact Hq].
Qed.

(* the first triple of l named Z by g *)
Definition find3 (g : nat -> nat -> nat -> nat) (l : list (nat * nat * nat)) (Z : nat) :
  option (nat * nat * nat) :=
  find (fun t => Nat.eqb (g (fst (fst t)) (snd (fst t)) (snd t)) Z) l.

Lemma find3P g l Z :
  find_named_spec (fun t => g (fst (fst t)) (snd (fst t)) (snd t)) l Z (find3 g l Z).
Proof. apply find_namedP. Qed.

(* equality of names under an injective naming of triples *)
Lemma eqb_inj3 (g : nat -> nat -> nat -> nat) :
  (forall p X q p' X' q', g p X q = g p' X' q' -> p = p' /\ X = X' /\ q = q') ->
  forall p X q p' X' q',
    Nat.eqb (g p X q) (g p' X' q') = Nat.eqb p p' && Nat.eqb X X' && Nat.eqb q q'.
Proof.
  intros Hinj p X q p' X' q'. destruct (Nat.eqb_spec (g p X q) (g p' X' q')) as [E|E].
  - apply Hinj in E. destruct E as [-> [-> ->]]. rewrite !Nat.eqb_refl. reflexivity.
  - destruct (Nat.eqb_spec p p') as [E1|E1]; [|reflexivity].
    destruct (Nat.eqb_spec X X') as [E2|E2]; [|reflexivity].
    destruct (Nat.eqb_spec q q') as [E3|E3]; [|reflexivity].
    exfalso. apply E. congruence.
Qed.

Section BarHillelProofs.
Variable S : SR.
Add Ring BHRing : (sth S).

(* a 0/1 factor under a guard joins the guard *)
Lemma guard_mul (c d : bool) (w : S) :
  (if c then w * (if d then 1 else 0) else 0) = if c && d then w else 0.
Proof. destruct c, d; cbn [andb]; [apply smul_1_r|apply smul_0_r|reflexivity|reflexivity]. Qed.

(* a one-letter body or a one-letter path needs a one-letter string *)
Lemma len1_cases (ys : list nat) : (exists b, ys = [b]) \/ length ys <> 1%nat.
Proof. destruct ys as [|b [|b' ys]]; [right; discriminate|left; exists b; reflexivity|right; discriminate]. Qed.

Lemma Wb_T1_len (g : nat -> list nat -> S) a ys : length ys <> 1%nat -> Wb g [T a] ys = 0.
Proof.
  intros H. rewrite Wb_T1. destruct ys as [|b [|b' ys]]; [reflexivity|destruct (H eq_refl)|reflexivity].
Qed.

Section Paths.
Variable arcs : list (larc S).
Variable states : list nat.
Hypothesis Hnd : NoDup states.
Hypothesis Hdst : forall x, In x arcs -> In (adst x) states.

Lemma Tw_nil_nil p q : Tw arcs p q [] [] = if Nat.eqb p q then 1 else 0.
Proof. reflexivity. Qed.

Lemma Tw_cons_cons p q a xs b ys :
  Tw arcs p q (a :: xs) (b :: ys)
  = bsum arcs (fun x => if Nat.eqb (asrc x) p && Nat.eqb (ain x) a && Nat.eqb (aout x) b
                        then awt x * Tw arcs (adst x) q xs ys else 0).
Proof. reflexivity. Qed.

Lemma Tw_nil_cons p q b ys : Tw arcs p q [] (b :: ys) = 0.
Proof. reflexivity. Qed.

Lemma Tw_cons_nil p q a xs : Tw arcs p q (a :: xs) [] = 0.
Proof. reflexivity. Qed.

(* the machine is letter-to-letter *)
Lemma Tw_len q : forall xs ys p, length xs <> length ys -> Tw arcs p q xs ys = 0.
Proof.
  induction xs as [|a xs IH]; intros ys p Hl.
  - destruct ys as [|b ys]; [exfalso; apply Hl; reflexivity|reflexivity].
  - destruct ys as [|b ys]; [reflexivity|].
    rewrite Tw_cons_cons. apply bsum_zero; intros x _.
    destruct (Nat.eqb (asrc x) p && Nat.eqb (ain x) a && Nat.eqb (aout x) b); [|reflexivity].
    rewrite IH; [apply smul_0_r|]. cbn [length] in Hl. lia.
Qed.

(* a path for (xs1 ++ xs2, ys1 ++ ys2) with |xs1| = |ys1| passes through a middle state *)
Lemma Tw_app q xs2 ys2 : forall xs1 ys1 p,
  In p states -> length xs1 = length ys1 ->
  Tw arcs p q (xs1 ++ xs2) (ys1 ++ ys2)
  = bsum states (fun r => Tw arcs p r xs1 ys1 * Tw arcs r q xs2 ys2).
Proof.
  induction xs1 as [|a xs1 IH]; intros ys1 p Hp Hl.
  - destruct ys1 as [|b ys1]; [|discriminate Hl]. cbn [app].
    rewrite (BigSum.bsum_single S states p _ Hnd Hp).
    + rewrite Tw_nil_nil, Nat.eqb_refl. symmetry. apply smul_1_l.
    + intros r _ Hr. rewrite Tw_nil_nil, (proj2 (Nat.eqb_neq p r)) by congruence. apply smul_0_l.
  - destruct ys1 as [|b ys1]; [discriminate Hl|]. cbn [app].
    rewrite Tw_cons_cons.
    rewrite (bsum_ext S states _
               (fun r => bsum arcs (fun x =>
                  if Nat.eqb (asrc x) p && Nat.eqb (ain x) a && Nat.eqb (aout x) b
                  then awt x * (Tw arcs (adst x) r xs1 ys1 * Tw arcs r q xs2 ys2) else 0))).
    2:{ intros r _. rewrite Tw_cons_cons, <- bsum_mul_r. apply bsum_ext; intros x _.
        destruct (Nat.eqb (asrc x) p && Nat.eqb (ain x) a && Nat.eqb (aout x) b);
          [symmetry; apply (smul_assoc S)|apply smul_0_l]. }
    rewrite bsum_swap. apply bsum_ext; intros x Hx.
    destruct (Nat.eqb (asrc x) p && Nat.eqb (ain x) a && Nat.eqb (aout x) b).
    + rewrite bsum_mul_l. f_equal. apply IH; [apply Hdst; exact Hx|].
      cbn [length] in Hl. lia.
    + symmetry. apply bsum_const_zero.
Qed.

End Paths.

Lemma words_eq_add (V : list nat) : forall n1 n2 (g : list nat -> S),
  bsum (words_eq V (n1 + n2)) g
  = bsum (words_eq V n1) (fun a => bsum (words_eq V n2) (fun b => g (a ++ b))).
Proof.
  induction n1 as [|n1 IH]; intros n2 g.
  - cbn [Nat.add]. change (words_eq V 0) with [@nil nat]. rewrite bsum_cons, bsum_nil.
    cbn [app]. symmetry. apply sadd_0_r.
  - cbn [Nat.add]. rewrite !bsum_words_eq_S. apply bsum_ext; intros c _.
    rewrite (IH n2 (fun w => g (c :: w))). reflexivity.
Qed.

(* pairs of words whose lengths follow a cut of ys  against  cuts of a word of length |ys| *)
Lemma words_split (V : list nat) : forall (ys : list nat) (H : list nat -> list nat -> S),
  bsum (splits ys) (fun s =>
    bsum (words_eq V (length (fst s))) (fun x1 =>
      bsum (words_eq V (length (snd s))) (fun x2 => H x1 x2)))
  = bsum (words_eq V (length ys)) (fun xs => bsum (splits xs) (fun t => H (fst t) (snd t))).
Proof.
  induction ys as [|b ys IH]; intros H.
  - cbn. rewrite !sadd_0_r. reflexivity.
  - rewrite (bsum_splits_cons S b ys (fun u v =>
               bsum (words_eq V (length u)) (fun x1 => bsum (words_eq V (length v)) (fun x2 => H x1 x2)))).
    cbn [length]. change (words_eq V 0) with [@nil nat].
    rewrite bsum_cons, bsum_nil, sadd_0_r, !bsum_words_eq_S, bsum_letters_splits. f_equal.
    (* a first part c :: w on the left, a word c :: w on the right: by the induction
       hypothesis at  H (c :: _) _ *)
    rewrite (bsum_ext S V _ _ (fun c _ => eq_sym (IH (fun x1 x2 => H (c :: x1) x2)))), bsum_swap.
    apply bsum_ext; intros s _. apply bsum_words_eq_S.
Qed.

Section Bridge.
Variables init fin : list (nat * S).
Variable arcs : list (larc S).

(* the letter-to-letter machine as a transducer of model/Fst.v *)
Definition lift_arc (x : larc S) : tarc S := (asrc x, Some (ain x), Some (aout x), adst x, awt x).
Definition lift_fst : fst_t S := mkT init fin (map lift_arc arcs).

(* a lifted arc consumes one letter of each tape, like an arc in Tw *)
Lemma arcterm_lift fuel p xs ys x :
  arcterm S lift_fst fuel p xs ys (lift_arc x)
  = match xs, ys with
    | a :: xs', b :: ys' =>
        if Nat.eqb (asrc x) p && Nat.eqb (ain x) a && Nat.eqb (aout x) b
        then awt x * trelf lift_fst fuel (adst x) xs' ys' else 0
    | _, _ => 0
    end.
Proof.
  unfold lift_arc. rewrite arcterm_mk. destruct (Nat.eqb (asrc x) p); cbn [andb].
  - destruct xs as [|a xs]; [reflexivity|]. rewrite eat_some_cons.
    destruct (Nat.eqb (ain x) a); cbn [andb]; [|destruct ys; reflexivity].
    destruct ys as [|b ys]; [reflexivity|]. rewrite eat_some_cons.
    destruct (Nat.eqb (aout x) b); reflexivity.
  - destruct xs, ys; reflexivity.
Qed.

Lemma trelf_lift : forall xs fuel p ys,
  length xs <= fuel ->
  trelf lift_fst fuel p xs ys = bsum fin (fun k => snd k * Tw arcs p (fst k) xs ys).
Proof.
  induction xs as [|a xs IH]; intros fuel p ys Hl.
  - (* no arc applies: only the final weight is left *)
    transitivity (match ys with [] => fget fin p | _ :: _ => 0 end).
    { destruct fuel as [|f0]; [rewrite trelf_O; destruct ys; apply sadd_0_r|].
      rewrite trelf_S. cbn [lift_fst tarcs tfinal]. rewrite bsum_map, bsum_zero.
      - destruct ys; apply sadd_0_r.
      - intros x _. rewrite arcterm_lift. reflexivity. }
    destruct ys as [|b ys].
    + unfold fget. apply bsum_ext; intros k _. rewrite Tw_nil_nil.
      destruct (Nat.eqb p (fst k)); symmetry; [apply smul_1_r|apply smul_0_r].
    + symmetry. apply bsum_zero; intros k _. rewrite Tw_nil_cons. apply smul_0_r.
  - destruct fuel as [|f0]; [cbn [length] in Hl; lia|].
    rewrite trelf_S_cons_l. cbn [lift_fst tarcs]. rewrite bsum_map.
    rewrite (bsum_ext S arcs _ _ (fun x _ => arcterm_lift f0 p (a :: xs) ys x)).
    destruct ys as [|b ys].
    + rewrite bsum_const_zero. symmetry. apply bsum_zero; intros k _. rewrite Tw_cons_nil. apply smul_0_r.
    + transitivity (bsum arcs (fun x => bsum fin (fun k =>
                      snd k * (if Nat.eqb (asrc x) p && Nat.eqb (ain x) a && Nat.eqb (aout x) b
                               then awt x * Tw arcs (adst x) (fst k) xs ys else 0)))).
      * apply bsum_ext; intros x _.
        destruct (Nat.eqb (asrc x) p && Nat.eqb (ain x) a && Nat.eqb (aout x) b).
        -- rewrite (IH f0 (adst x) ys) by (cbn [length] in Hl; lia).
           rewrite <- bsum_mul_l. apply bsum_ext; intros k _. ring.
        -- symmetry. apply bsum_zero; intros k _. apply smul_0_r.
      * rewrite bsum_swap. apply bsum_ext; intros k _. rewrite Tw_cons_cons, bsum_mul_l. reflexivity.
Qed.

(* the relation of the machine, as soon as the fuel covers the input *)
Theorem trel_lift fuel xs ys :
  length xs <= fuel -> trel lift_fst fuel xs ys = Mrel init fin arcs xs ys.
Proof.
  intros Hl. unfold trel, Mrel. cbn [lift_fst tinit]. apply bsum_ext; intros i _.
  fold lift_fst. rewrite (trelf_lift xs fuel (fst i) ys Hl), <- bsum_mul_l.
  apply bsum_ext; intros k _. apply (smul_assoc S).
Qed.

End Bridge.

(* what a number names in the product grammar: the start symbol, a triple, a terminal item,
   nothing *)
Inductive code := CS | CN (p X q : nat) | CT (p a q : nat) | CX.

Section Main.
Variables (nt tm : nat -> nat -> nat -> nat) (s' : nat).
Variable states : list nat.
Variables init fin : list (nat * S).
Variable arcs : list (larc S).
Variable G : grammar S.
Variable start : nat.
Variable V : list nat.
Variable f : nat -> list nat -> S.

(* the naming of the product nonterminals is injective *)
Hypothesis nt_inj : forall p X q p' X' q', nt p X q = nt p' X' q' -> p = p' /\ X = X' /\ q = q'.
Hypothesis tm_inj : forall p a q p' a' q', tm p a q = tm p' a' q' -> p = p' /\ a = a' /\ q = q'.
Hypothesis nt_tm : forall p X q p' a q', nt p X q <> tm p' a q'.
Hypothesis nt_s : forall p X q, nt p X q <> s'.
Hypothesis tm_s : forall p a q, tm p a q <> s'.
(* the states of the machine and the input alphabet *)
Hypothesis Hnd : NoDup states.
Hypothesis HV : NoDup V.
Hypothesis Harcs : forall x, In x arcs -> In (asrc x) states /\ In (adst x) states /\ In (ain x) V.
Hypothesis Hinit : forall i, In i init -> In (fst i) states.
Hypothesis Hfin : forall k, In k fin -> In (fst k) states.
(* the terminals of the grammar are input symbols *)
Hypothesis HGV : forall r a, In r G -> In (T a) (rbody r) -> In a V.
(* f is a solution of the equations of G *)
Hypothesis Hf : solves S G f.

Lemma arc_dst_state : forall x, In x arcs -> In (adst x) states.
Proof. intros x Hx. destruct (Harcs x Hx) as [_ [H _]]. exact H. Qed.

(* sum over xs of  f X xs * (weight of the paths p -> q for (xs, ys)) *)
Definition FN (p X q : nat) (ys : list nat) : S :=
  bsum (words_eq V (length ys)) (fun xs => f X xs * Tw arcs p q xs ys).

Definition LN : list (nat * nat * nat) := triples states (map rhead G) states.
Definition LT : list (nat * nat * nat) := triples states V states.

Definition decode (Z : nat) : code :=
  if Nat.eqb Z s' then CS else
  match find3 nt LN Z with
  | Some t => CN (fst (fst t)) (snd (fst t)) (snd t)
  | None => match find3 tm LT Z with
            | Some t => CT (fst (fst t)) (snd (fst t)) (snd t)
            | None => CX
            end
  end.

Definition Fv (Z : nat) (ys : list nat) : S :=
  match decode Z with
  | CS => bsum init (fun i => bsum fin (fun k => snd i * snd k * FN (fst i) start (fst k) ys))
  | CN p X q => FN p X q ys
  | CT p a q => Tw arcs p q [a] ys
  | CX => 0
  end.

(* what decode says of Z; the conditions of the last case are those under which the
   rule groups of the product have no rule with head Z *)
Inductive decode_spec (Z : nat) : code -> Prop :=
| DecS : Z = s' -> decode_spec Z CS
| DecN p X q : Z = nt p X q -> In p states -> In X (map rhead G) -> In q states ->
               decode_spec Z (CN p X q)
| DecT p a q : Z = tm p a q -> In p states -> In a V -> In q states -> decode_spec Z (CT p a q)
| DecX : s' <> Z ->
         (forall p X q, In p states -> In X (map rhead G) -> In q states -> nt p X q <> Z) ->
         (forall p a q, In p states -> In a V -> In q states -> tm p a q <> Z) ->
         decode_spec Z CX.

Lemma decodeP Z : decode_spec Z (decode Z).
Proof.
  unfold decode. destruct (Nat.eqb_spec Z s') as [E|E]; [apply DecS; exact E|].
  destruct (find3P nt LN Z) as [[[p X] q] Hin EZ|Hn].
  - destruct (proj1 (in_triples _ _ _ p X q) Hin) as [Hp [HX Hq]].
    apply DecN; [symmetry; exact EZ|exact Hp|exact HX|exact Hq].
  - destruct (find3P tm LT Z) as [[[p a] q] Hin EZ|Ht].
    + destruct (proj1 (in_triples _ _ _ p a q) Hin) as [Hp [Ha Hq]].
      apply DecT; [symmetry; exact EZ|exact Hp|exact Ha|exact Hq].
    + apply DecX.
      * intros H. exact (E (eq_sym H)).
      * intros p X q Hp HX Hq. apply (Hn (p, X, q)), in_triples. auto.
      * intros p a q Hp Ha Hq. apply (Ht (p, a, q)), in_triples. auto.
Qed.

Lemma Fv_s ys :
  Fv s' ys = bsum init (fun i => bsum fin (fun k => snd i * snd k * FN (fst i) start (fst k) ys)).
Proof. unfold Fv, decode. rewrite Nat.eqb_refl. reflexivity. Qed.

(* the triples (p, X, q): X need not be a head of G (then both sides are zero) *)
Lemma Fv_nt p X q ys : In p states -> In q states -> Fv (nt p X q) ys = FN p X q ys.
Proof.
  intros Hp Hq. unfold Fv.
  destruct (decodeP (nt p X q)) as [E|p' X' q' E _ _ _|p' a q' E _ _ _|_ Hn _].
  - destruct (nt_s _ _ _ E).
  - apply nt_inj in E. destruct E as [-> [-> ->]]. reflexivity.
  - destruct (nt_tm _ _ _ _ _ _ E).
  - symmetry. unfold FN. apply bsum_zero; intros xs _.
    rewrite (solves_nohead S G f X xs Hf); [apply smul_0_l|].
    intros r Hr E. apply (Hn p X q Hp); [rewrite <- E; apply in_map; exact Hr|exact Hq|reflexivity].
Qed.

Lemma Fv_tm p a q ys :
  In p states -> In a V -> In q states -> Fv (tm p a q) ys = Tw arcs p q [a] ys.
Proof.
  intros Hp Ha Hq. unfold Fv.
  destruct (decodeP (tm p a q)) as [E|p' X q' E _ _ _|p' a' q' E _ _ _|_ _ Ht].
  - destruct (tm_s _ _ _ E).
  - destruct (nt_tm _ _ _ _ _ _ (eq_sym E)).
  - apply tm_inj in E. destruct E as [-> [-> ->]]. reflexivity.
  - destruct (Ht p a q Hp Ha Hq eq_refl).
Qed.

(* a weighted language seen through the paths from p to q; FN p X q is img p q (f X) *)

Definition img (p q : nat) (h : list nat -> S) (ys : list nat) : S :=
  bsum (words_eq V (length ys)) (fun xs => h xs * Tw arcs p q xs ys).

Lemma img_ext p q (h h' : list nat -> S) ys : (forall xs, h xs = h' xs) -> img p q h ys = img p q h' ys.
Proof. intros E. apply bsum_ext; intros xs _. rewrite E. reflexivity. Qed.

(* the empty word alone *)
Lemma img_nilw p q ys : img p q (nilw S) ys = if Nat.eqb p q then nilw S ys else 0.
Proof.
  unfold img, nilw. destruct ys as [|b ys]; cbn [length].
  - change (words_eq V 0) with [@nil nat]. rewrite bsum_cons, bsum_nil, Tw_nil_nil.
    rewrite sadd_0_r. apply smul_1_l.
  - rewrite bsum_words_eq_S, (bsum_zero S V).
    + destruct (Nat.eqb p q); reflexivity.
    + intros c _. apply bsum_zero; intros w _. apply smul_0_l.
Qed.

(* one input letter *)
Lemma img_letter p r a ys : In a V -> img p r (Wb f [T a]) ys = Tw arcs p r [a] ys.
Proof.
  intros Ha. unfold img. destruct (len1_cases ys) as [[b ->]|Hl].
  - cbn [length]. rewrite bsum_words_eq_S. change (words_eq V 0) with [@nil nat].
    rewrite (BigSum.bsum_single S V a _ HV Ha).
    + rewrite bsum_cons, bsum_nil, Wb_T1, Nat.eqb_refl, sadd_0_r. apply smul_1_l.
    + intros c _ Hc. rewrite bsum_cons, bsum_nil, Wb_T1, (proj2 (Nat.eqb_neq a c)) by congruence.
      rewrite sadd_0_r. apply smul_0_l.
  - rewrite (Tw_len arcs r [a] ys p) by (intros E; apply Hl; rewrite <- E; reflexivity).
    apply bsum_zero; intros xs Hxs. apply words_eq_spec in Hxs.
    rewrite Wb_T1_len by (rewrite (proj1 Hxs); exact Hl). apply smul_0_l.
Qed.

(* Tw_app along a cut s of ys *)
Lemma Tw_split ys s x1 x2 p q :
  In s (splits ys) -> In p states -> length x1 = length (fst s) ->
  Tw arcs p q (x1 ++ x2) ys = bsum states (fun r => Tw arcs p r x1 (fst s) * Tw arcs r q x2 (snd s)).
Proof.
  intros Hs Hp Hl. rewrite <- (splits_app ys s Hs). apply (Tw_app arcs states Hnd arc_dst_state); assumption.
Qed.

(* the Cauchy product of two weighted languages: the paths pass through a middle state *)
Lemma img_conv p q (h1 h2 : list nat -> S) ys : In p states ->
  img p q (fun xs => bsum (splits xs) (fun t => h1 (fst t) * h2 (snd t))) ys
  = bsum (splits ys) (fun s => bsum states (fun r => img p r h1 (fst s) * img r q h2 (snd s))).
Proof.
  intros Hp. unfold img.
  transitivity (bsum (words_eq V (length ys)) (fun xs => bsum (splits xs) (fun t =>
                  (fun a b => h1 a * h2 b * Tw arcs p q (a ++ b) ys) (fst t) (snd t)))).
  { apply bsum_ext; intros xs _. rewrite <- bsum_mul_r.
    apply bsum_ext; intros t Ht. rewrite (splits_app xs t Ht). reflexivity. }
  rewrite <- (words_split V ys (fun a b => h1 a * h2 b * Tw arcs p q (a ++ b) ys)).
  apply bsum_ext; intros s Hs.
  transitivity (bsum (words_eq V (length (fst s))) (fun x1 =>
                  bsum (words_eq V (length (snd s))) (fun x2 => bsum states (fun r =>
                    (h1 x1 * Tw arcs p r x1 (fst s)) * (h2 x2 * Tw arcs r q x2 (snd s)))))).
  { apply bsum_ext; intros x1 Hx1. apply words_eq_spec in Hx1. destruct Hx1 as [Hl1 _].
    apply bsum_ext; intros x2 _. rewrite (Tw_split ys s x1 x2 p q Hs Hp Hl1), <- bsum_mul_l.
    apply bsum_ext; intros r _. ring. }
  rewrite bsum_swap3. apply bsum_ext; intros r _. symmetry. apply bsum_bsum_mul.
Qed.

Definition icode (p : nat) (y : sym) (r : nat) : nat :=
  match y with T a => tm p a r | N X => nt p X r end.

Lemma item_icode p y r : item nt tm p y r = N (icode p y r).
Proof. destruct y; reflexivity. Qed.

(* the value of the item of y between p and r *)
Lemma Fv_item p y r ys :
  In p states -> In r states -> (forall a, y = T a -> In a V) ->
  Fv (icode p y r) ys = img p r (Wb f [y]) ys.
Proof.
  intros Hp Hr Hy. destruct y as [a|X]; cbn [icode].
  - rewrite (Fv_tm p a r ys Hp (Hy a eq_refl) Hr). symmetry. apply img_letter. exact (Hy a eq_refl).
  - rewrite (Fv_nt p X r ys Hp Hr). apply img_ext; intros xs. rewrite Wb_N1. reflexivity.
Qed.

Lemma expand_nil p : expand nt tm states p [] = [(p, [])].
Proof. reflexivity. Qed.

Lemma expand_cons p y rest :
  expand nt tm states p (y :: rest)
  = flat_map (fun r => map (fun e => (fst e, item nt tm p y r :: snd e))
                           (expand nt tm states r rest)) states.
Proof. reflexivity. Qed.

(* the threadings end in a state *)
Lemma expand_end : forall body p e,
  In p states -> In e (expand nt tm states p body) -> In (fst e) states.
Proof.
  induction body as [|y rest IH]; intros p e Hp He.
  - rewrite expand_nil in He. destruct He as [<-|[]]. exact Hp.
  - rewrite expand_cons in He. apply in_flat_map in He. destruct He as [r [Hr He]].
    apply in_map_iff in He. destruct He as [e' [<- He']]. cbn [fst].
    exact (IH r e' Hr He').
Qed.

(* the threadings of a body from p to q  against  the input words *)
Lemma key_lemma q : forall body p ys,
  In p states -> (forall a, In (T a) body -> In a V) ->
  bsum (expand nt tm states p body) (fun e => if Nat.eqb (fst e) q then Wb Fv (snd e) ys else 0)
  = bsum (words_eq V (length ys)) (fun xs => Wb f body xs * Tw arcs p q xs ys).
Proof.
  induction body as [|y rest IH]; intros p ys Hp Hb.
  - rewrite expand_nil, bsum_cons, bsum_nil. cbn [fst snd].
    change (Wb Fv [] ys) with (nilw S ys).
    rewrite sadd_0_r. symmetry. exact (img_nilw p q ys).
  - assert (Hrest : forall a, In (T a) rest -> In a V) by (intros a Ha; apply Hb; right; exact Ha).
    assert (Hy : forall a, y = T a -> In a V) by (intros a ->; apply Hb; left; reflexivity).
    transitivity (img p q (fun xs => bsum (splits xs) (fun t => Wb f [y] (fst t) * Wb f rest (snd t))) ys).
    2:{ apply img_ext; intros xs. change (y :: rest) with ([y] ++ rest). rewrite Wb_app. reflexivity. }
    rewrite (img_conv p q (Wb f [y]) (Wb f rest) ys Hp), bsum_swap.
    rewrite expand_cons, bsum_flat_map. apply bsum_ext; intros r Hr. rewrite bsum_map. cbn [fst snd].
    (* the item of y, then a threading of the rest from r *)
    transitivity (bsum (expand nt tm states r rest) (fun e => bsum (splits ys) (fun s =>
                    Fv (icode p y r) (fst s) * (if Nat.eqb (fst e) q then Wb Fv (snd e) (snd s) else 0)))).
    { apply bsum_ext; intros e _. rewrite item_icode. destruct (Nat.eqb (fst e) q).
      - reflexivity.
      - symmetry. apply bsum_zero; intros s _. apply smul_0_r. }
    rewrite bsum_swap. apply bsum_ext; intros s _.
    rewrite bsum_mul_l, (IH r (snd s) Hr Hrest), (Fv_item p y r (fst s) Hp Hr Hy). reflexivity.
Qed.

Lemma gstep_start (g : nat -> list nat -> S) Z ys :
  gstep S (bh_start nt s' init fin start) g Z ys
  = if Nat.eqb s' Z
    then bsum init (fun i => bsum fin (fun k => snd i * snd k * g (nt (fst i) start (fst k)) ys))
    else 0.
Proof.
  unfold gstep, bh_start. rewrite bsum_flat_map.
  destruct (Nat.eqb s' Z) eqn:E.
  - apply bsum_ext; intros i _. rewrite bsum_map. apply bsum_ext; intros k _.
    cbn [rhead rw rbody fst snd]. rewrite E, Wb_N1. reflexivity.
  - apply bsum_zero; intros i _. rewrite bsum_map. apply bsum_zero; intros k _.
    cbn [rhead fst snd]. rewrite E. reflexivity.
Qed.

Lemma gstep_rules (g : nat -> list nat -> S) Z ys :
  gstep S (bh_rules nt tm states G) g Z ys
  = bsum G (fun r => bsum states (fun p => bsum (expand nt tm states p (rbody r)) (fun e =>
      if Nat.eqb (nt p (rhead r) (fst e)) Z then rw r * Wb g (snd e) ys else 0))).
Proof.
  unfold gstep, bh_rules. rewrite bsum_flat_map. apply bsum_ext; intros r _.
  rewrite bsum_flat_map. apply bsum_ext; intros p _. rewrite bsum_map. reflexivity.
Qed.

Lemma gstep_arcs (g : nat -> list nat -> S) Z ys :
  gstep S (bh_arcs tm arcs) g Z ys
  = bsum arcs (fun x => if Nat.eqb (tm (asrc x) (ain x) (adst x)) Z
                        then awt x * Wb g [T (aout x)] ys else 0).
Proof. unfold gstep, bh_arcs. rewrite bsum_map. reflexivity. Qed.

(* the heads of the rules are names of triples over the states, the heads of G and V *)
Lemma gstep_rules_other (g : nat -> list nat -> S) Z ys :
  (forall p X q, In p states -> In X (map rhead G) -> In q states -> nt p X q <> Z) ->
  gstep S (bh_rules nt tm states G) g Z ys = 0.
Proof.
  intros Hn. apply gstep_nohead. intros r Hr. unfold bh_rules in Hr.
  apply in_flat_map in Hr. destruct Hr as [r0 [Hr0 Hr]].
  apply in_flat_map in Hr. destruct Hr as [p [Hp Hr]]. apply in_map_iff in Hr.
  destruct Hr as [e [<- He]]. cbn [rhead fst snd].
  exact (Hn p (rhead r0) (fst e) Hp (in_map rhead G r0 Hr0) (expand_end _ p e Hp He)).
Qed.

Lemma gstep_arcs_other (g : nat -> list nat -> S) Z ys :
  (forall p a q, In p states -> In a V -> In q states -> tm p a q <> Z) ->
  gstep S (bh_arcs tm arcs) g Z ys = 0.
Proof.
  intros Ht. apply gstep_nohead. intros r Hr. unfold bh_arcs in Hr. apply in_map_iff in Hr.
  destruct Hr as [x [<- Hx]]. cbn [rhead fst snd]. destruct (Harcs x Hx) as [H1 [H2 H3]].
  exact (Ht (asrc x) (ain x) (adst x) H1 H3 H2).
Qed.

(* at a triple (p, X, q) *)
Lemma bh_solves_nt p X q ys :
  In p states -> In q states ->
  gstep S (bh_rules nt tm states G) Fv (nt p X q) ys = FN p X q ys.
Proof.
  intros Hp Hq. rewrite gstep_rules. unfold FN.
  rewrite (bsum_ext S (words_eq V (length ys)) _ (fun xs => gstep S G f X xs * Tw arcs p q xs ys))
    by (intros xs _; rewrite <- (Hf X xs); reflexivity).
  rewrite bsum_gstep. apply bsum_ext; intros r Hr.
  rewrite (BigSum.bsum_single S states p _ Hnd Hp).
  - destruct (Nat.eqb (rhead r) X) eqn:EX.
    + rewrite <- (key_lemma q (rbody r) p ys Hp (fun a Ha => HGV r a Hr Ha)), <- bsum_mul_l.
      apply bsum_ext; intros e _.
      rewrite (eqb_inj3 nt nt_inj), Nat.eqb_refl, EX. cbn [andb]. symmetry. apply smul_if_r.
    + apply bsum_zero; intros e _. rewrite (eqb_inj3 nt nt_inj), EX, andb_false_r. reflexivity.
  - intros c _ Hc. apply bsum_zero; intros e _.
    rewrite (eqb_inj3 nt nt_inj), (proj2 (Nat.eqb_neq c p) Hc). reflexivity.
Qed.

(* at a terminal item (p, a, q) *)
Lemma bh_solves_tm p a q ys :
  gstep S (bh_arcs tm arcs) Fv (tm p a q) ys = Tw arcs p q [a] ys.
Proof.
  rewrite gstep_arcs. destruct (len1_cases ys) as [[b ->]|Hl].
  - rewrite Tw_cons_cons. apply bsum_ext; intros x _.
    rewrite (eqb_inj3 tm tm_inj), Wb_T1, Tw_nil_nil, !guard_mul.
    rewrite <- !andb_assoc, (andb_comm (Nat.eqb (adst x) q)). reflexivity.
  - rewrite (Tw_len arcs q [a] ys p) by (intros E; apply Hl; rewrite <- E; reflexivity).
    apply bsum_zero; intros x _. rewrite (Wb_T1_len Fv _ ys Hl).
    destruct (Nat.eqb (tm (asrc x) (ain x) (adst x)) (tm p a q)); [apply smul_0_r|reflexivity].
Qed.

(* by cases on what Z names; a group that has no rule with head Z contributes nothing *)
Theorem bar_hillel_solves :
  solves S (bar_hillel nt tm s' states init fin arcs G start) Fv.
Proof.
  intros Z ys. unfold bar_hillel. rewrite !gstep_app, gstep_start.
  unfold Fv at 1. destruct (decodeP Z) as [->|p X q -> Hp _ Hq|p a q -> Hp Ha Hq|Hs Hn Ht].
  - rewrite Nat.eqb_refl.
    rewrite gstep_rules_other by (intros; apply nt_s).
    rewrite gstep_arcs_other by (intros; apply tm_s).
    rewrite !sadd_0_r. apply bsum_ext; intros i Hi. apply bsum_ext; intros k Hk.
    rewrite (Fv_nt (fst i) start (fst k) ys (Hinit i Hi) (Hfin k Hk)). reflexivity.
  - rewrite (proj2 (Nat.eqb_neq s' (nt p X q))) by (intros E; exact (nt_s p X q (eq_sym E))).
    rewrite (bh_solves_nt p X q ys Hp Hq).
    rewrite gstep_arcs_other by (intros p' a q' _ _ _ E; exact (nt_tm _ _ _ _ _ _ (eq_sym E))).
    rewrite sadd_0_l, sadd_0_r. reflexivity.
  - rewrite (proj2 (Nat.eqb_neq s' (tm p a q))) by (intros E; exact (tm_s p a q (eq_sym E))).
    rewrite (bh_solves_tm p a q ys).
    rewrite gstep_rules_other by (intros; apply nt_tm).
    rewrite !sadd_0_l. reflexivity.
  - rewrite (proj2 (Nat.eqb_neq s' Z) Hs), (gstep_rules_other Fv Z ys Hn), (gstep_arcs_other Fv Z ys Ht).
    rewrite !sadd_0_l. reflexivity.
Qed.

Corollary bar_hillel_start_value ys :
  Fv s' ys = bsum (words_eq V (length ys)) (fun xs => f start xs * Mrel init fin arcs xs ys).
Proof.
  rewrite Fv_s. unfold FN, Mrel.
  transitivity (bsum init (fun i => bsum fin (fun k => bsum (words_eq V (length ys)) (fun xs =>
                  f start xs * (snd i * snd k * Tw arcs (fst i) (fst k) xs ys))))).
  { apply bsum_ext; intros i _. apply bsum_ext; intros k _. rewrite <- bsum_mul_l.
    apply bsum_ext; intros xs _. ring. }
  rewrite (bsum_swap3 S init fin (words_eq V (length ys))
             (fun i k xs => f start xs * (snd i * snd k * Tw arcs (fst i) (fst k) xs ys))).
  apply bsum_ext; intros xs _.
  rewrite <- bsum_mul_l. apply bsum_ext; intros i _. rewrite <- bsum_mul_l. reflexivity.
Qed.

Corollary bar_hillel_start_equation ys :
  gstep S (bar_hillel nt tm s' states init fin arcs G start) Fv s' ys
  = bsum (words_eq V (length ys)) (fun xs => f start xs * Mrel init fin arcs xs ys).
Proof. rewrite <- (bar_hillel_solves s' ys). apply bar_hillel_start_value. Qed.

Corollary bar_hillel_start_trel ys fuel :
  length ys <= fuel ->
  Fv s' ys = bsum (words_eq V (length ys))
                  (fun xs => f start xs * trel (lift_fst init fin arcs) fuel xs ys).
Proof.
  intros Hl. rewrite bar_hillel_start_value. apply bsum_ext; intros xs Hxs.
  apply words_eq_spec in Hxs. destruct Hxs as [Hlx _].
  rewrite (trel_lift init fin arcs fuel xs ys) by lia. reflexivity.
Qed.

End Main.

Corollary bar_hillel_W_stationary :
  forall (nt tm : nat -> nat -> nat -> nat) (s' : nat) (states : list nat)
         (init fin : list (nat * S)) (arcs : list (larc S)) (G : grammar S) (start : nat)
         (V : list nat) (h : nat),
    (forall p X q p' X' q', nt p X q = nt p' X' q' -> p = p' /\ X = X' /\ q = q') ->
    (forall p a q p' a' q', tm p a q = tm p' a' q' -> p = p' /\ a = a' /\ q = q') ->
    (forall p X q p' a q', nt p X q <> tm p' a q') ->
    (forall p X q, nt p X q <> s') ->
    (forall p a q, tm p a q <> s') ->
    NoDup states -> NoDup V ->
    (forall x, In x arcs -> In (asrc x) states /\ In (adst x) states /\ In (ain x) V) ->
    (forall i, In i init -> In (fst i) states) ->
    (forall k, In k fin -> In (fst k) states) ->
    (forall r a, In r G -> In (T a) (rbody r) -> In a V) ->
    (forall X xs, W G (Sn h) X xs = W G h X xs) ->
    solves S (bar_hillel nt tm s' states init fin arcs G start)
             (Fv nt tm s' states init fin arcs G start V (W G h)).
Proof.
  intros nt tm s' states init fin arcs G start V h H1 H2 H3 H4 H5 H6 H7 H8 H9 H10 H11 Hst.
  apply bar_hillel_solves; try assumption. apply stationary_solves. exact Hst.
Qed.

End BarHillelProofs.


(* a naming of the triples by numbers: Cantor pairing, residues modulo 3 *)
Definition ex_nt (p X q : nat) : nat := 3 * Cantor.to_nat (p, Cantor.to_nat (X, q)).
Definition ex_tm (p a q : nat) : nat := 3 * Cantor.to_nat (p, Cantor.to_nat (a, q)) + 1.
Definition ex_s : nat := 2.

Lemma cantor3_inj p X q p' X' q' :
  Cantor.to_nat (p, Cantor.to_nat (X, q)) = Cantor.to_nat (p', Cantor.to_nat (X', q')) ->
  p = p' /\ X = X' /\ q = q'.
Proof.
  intros E. apply Cantor.to_nat_inj in E. injection E as -> E.
  apply (Cantor.to_nat_inj (X, q) (X', q')) in E. injection E as -> ->. auto.
Qed.

Lemma ex_nt_inj p X q p' X' q' : ex_nt p X q = ex_nt p' X' q' -> p = p' /\ X = X' /\ q = q'.
Proof. unfold ex_nt. intros E. apply cantor3_inj. lia. Qed.

Lemma ex_tm_inj p a q p' a' q' : ex_tm p a q = ex_tm p' a' q' -> p = p' /\ a = a' /\ q = q'.
Proof. unfold ex_tm. intros E. apply cantor3_inj. lia. Qed.

Lemma ex_nt_tm p X q p' a q' : ex_nt p X q <> ex_tm p' a q'.
Proof. unfold ex_nt, ex_tm. lia. Qed.
Lemma ex_nt_s p X q : ex_nt p X q <> ex_s.
Proof. unfold ex_nt, ex_s. lia. Qed.
Lemma ex_tm_s p a q : ex_tm p a q <> ex_s.
Proof. unfold ex_tm, ex_s. lia. Qed.

Section Instance.
Variable S : SR.
Add Ring BHInstRing : (sth S).

(* the grammar  S -> a S | b   (S = 0, a = 0, b = 1), all weights one *)
Definition mk_rule (w : S) (h : nat) (b : list sym) : rule S := (w, h, b).
Definition ex_G : grammar S := [mk_rule 1 0 [T 0; N 0]; mk_rule 1 0 [T 1]].

(* xs = a^n b *)
Fixpoint anb (xs : list nat) : bool :=
  match xs with
  | [] => false
  | c :: t => match t with [] => Nat.eqb c 1 | _ :: _ => Nat.eqb c 0 && anb t end
  end.

Lemma anb_cons2 c d u : anb (c :: d :: u) = Nat.eqb c 0 && anb (d :: u).
Proof. reflexivity. Qed.

Definition ex_f (X : nat) (xs : list nat) : S :=
  if Nat.eqb X 0 then (if anb xs then 1 else 0) else 0.

Lemma ex_f_solves : solves S ex_G ex_f.
Proof.
  intros X xs. unfold gstep, ex_G. rewrite !bsum_cons, bsum_nil.
  unfold mk_rule. cbn [rhead rw rbody fst snd]. unfold ex_f at 1.
  destruct X as [|X]; cbn [Nat.eqb]; [|rewrite !sadd_0_l; reflexivity].
  rewrite !smul_1_l, sadd_0_r.
  destruct xs as [|c t]; [symmetry; apply sadd_0_l|].
  change (Wb ex_f [T 0; N 0] (c :: t)) with (if Nat.eqb 0 c then Wb ex_f [N 0] t else 0).
  rewrite Wb_N1, Wb_T1. unfold ex_f. cbn [Nat.eqb].
  destruct t as [|d u].
  - (* one letter: it must be b *)
    destruct c as [|[|c]]; cbn [anb Nat.eqb]; symmetry; apply sadd_0_l.
  - (* a first, then a^n b *)
    rewrite anb_cons2, sadd_0_r. destruct c as [|c]; reflexivity.
Qed.

(* a two-state machine: 0 -a:5/2-> 0, 0 -b:6/3-> 1, 0 -a:5/1-> 1, 1 -b:6/1-> 1, 1 -a:5/1-> 1 *)
Definition mk_arc (p a b q : nat) (w : S) : larc S := (p, a, b, q, w).
Definition mk_st (p : nat) (w : S) : nat * S := (p, w).
Definition ex_init : list (nat * S) := [mk_st 0 1].
Definition ex_fin : list (nat * S) := [mk_st 1 1].
Definition ex_arcs : list (larc S) :=
  [mk_arc 0 0 5 0 (1 + 1); mk_arc 0 1 6 1 (1 + 1 + 1); mk_arc 0 0 5 1 1; mk_arc 1 1 6 1 1;
   mk_arc 1 0 5 1 1].

Definition l01 : list nat := [0; 1]%nat.
Definition ex_bh : grammar S := bar_hillel ex_nt ex_tm ex_s l01 ex_init ex_fin ex_arcs ex_G 0.
Definition ex_Fv : nat -> list nat -> S :=
  Fv S ex_nt ex_tm ex_s l01 ex_init ex_fin ex_arcs ex_G 0 l01 ex_f.

Lemma NoDup_01 : NoDup l01.
Proof.
  constructor; [intros [E|[]]; discriminate E|]. constructor; [intros []|constructor].
Qed.

(* states and input symbols of the machine, terminals of the grammar: all in l01 *)
Lemma lt2_in a : Nat.ltb a 2 = true -> In a l01.
Proof. destruct a as [|[|a]]; [left; reflexivity|right; left; reflexivity|discriminate]. Qed.
Lemma ex_arcs_in : forall x, In x ex_arcs -> In (asrc x) l01 /\ In (adst x) l01 /\ In (ain x) l01.
Proof.
  intros x Hx.
  pose proof (proj1 (forallb_forall (fun x => Nat.ltb (asrc x) 2 && Nat.ltb (adst x) 2 && Nat.ltb (ain x) 2) ex_arcs)
                eq_refl x Hx) as H.
  apply andb_prop in H as [H H3]. apply andb_prop in H as [H1 H2].
  exact (conj (lt2_in _ H1) (conj (lt2_in _ H2) (lt2_in _ H3))).
Qed.
Lemma ex_init_in : forall i, In i ex_init -> In (fst i) l01.
Proof. intros i [<-|[]]. left. reflexivity. Qed.
Lemma ex_fin_in : forall k, In k ex_fin -> In (fst k) l01.
Proof. intros k [<-|[]]. right. left. reflexivity. Qed.
Lemma ex_G_terms : forall r a, In r ex_G -> In (T a) (rbody r) -> In a l01.
Proof.
  intros r a [<-|[<-|[]]] Ha; cbn in Ha.
  - destruct Ha as [[= <-]|[[=]|[]]]. left. reflexivity.
  - destruct Ha as [[= <-]|[]]. right. left. reflexivity.
Qed.

Example bar_hillel_instance : solves S ex_bh ex_Fv.
Proof.
  exact (bar_hillel_solves S ex_nt ex_tm ex_s l01 ex_init ex_fin ex_arcs ex_G 0 l01 ex_f
           ex_nt_inj ex_tm_inj ex_nt_tm ex_nt_s ex_tm_s NoDup_01 NoDup_01
           ex_arcs_in ex_init_in ex_fin_in ex_G_terms ex_f_solves).
Qed.

End Instance.

(* one value computed on both sides over the naturals: the output 5 6 comes from the one input
   string a b along two paths (0-0-1 of weight 2*3 and 0-1-1 of weight 1*1); the third component is the
   derivation sum of the product grammar itself at height 5 *)
Example bar_hillel_instance_value :
  ex_Fv NSR ex_s [5; 6] = 7%N /\
  bsum (words_eq l01 2) (fun xs => ex_f NSR 0 xs * Mrel (ex_init NSR) (ex_fin NSR) (ex_arcs NSR) xs [5; 6])%sr
  = 7%N /\
  W (ex_bh NSR) 5 ex_s [5; 6] = 7%N.
Proof. vm_compute. repeat split; reflexivity. Qed.

Print Assumptions Tw_app.
Print Assumptions words_eq_add.
Print Assumptions words_split.
Print Assumptions key_lemma.
Print Assumptions bar_hillel_solves.
Print Assumptions bar_hillel_start_value.
Print Assumptions bar_hillel_start_equation.
Print Assumptions trel_lift.
Print Assumptions bar_hillel_start_trel.
Print Assumptions bar_hillel_W_stationary.
Print Assumptions bar_hillel_instance.
Print Assumptions bar_hillel_instance_value.
