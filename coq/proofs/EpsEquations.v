(* Epsilon removal on machines WITH epsilon cycles: the values computed through a
   closure table K of the epsilon graph satisfy the PATH EQUATIONS of the automaton
   (the linear system whose least solution is the sum over all paths), given only
   the closure equation K = I + E K.  Valid in every star semiring.

     v q xs := pwK K (states_of m) m q xs      (value the epsilon-removed machine assigns from q)

     (E0)  v q []        = final q + sum_j E q j * v j []
     (E1)  v q (a :: xs) = sum_{arcs q -a-> r, weight w} w * v r xs  +  sum_j E q j * v j (a :: xs)
     (E2)  weight (epsremove_with K m) xs = sum_{(q,w) initial} w * v q xs

   and the same at the level of [call] for K := the Lehmann closure of the epsilon
   graph when its pivot stars are defined. *)
From Coq Require Import List Arith Bool.
From GV.lib Require Import Semiring BigSum.
From GV.model Require Import Linear Wfsa EpsSpec.
From GV.proofs Require Import WfsaProofs LehmannProof EpsRemove.
Import ListNotations.
Local Open Scope sr_scope.

Section EpsEquations.
Variable S : StarSR.

Definition closure_eq_l (m : wfsa S) (K : mat S) : Prop :=
  forall i k, In i (states_of m) -> In k (states_of m) ->
    mget K i k = (if Nat.eqb i k then 1 else 0) + bsum (states_of m) (fun j => epsf m i j * mget K j k).

Definition closure_eq_r (m : wfsa S) (K : mat S) : Prop :=
  forall i k, In i (states_of m) -> In k (states_of m) ->
    mget K i k = (if Nat.eqb i k then 1 else 0) + bsum (states_of m) (fun j => mget K i j * epsf m j k).

(* the state valuation: value from state q of the word xs in the epsilon-removed machine *)
Definition val (K : mat S) (m : wfsa S) (q : nat) (xs : list nat) : S := pwK K (states_of m) m q xs.

(* a real (labelled) step from q reading a, continuing with [cont] *)
Definition real_step (m : wfsa S) (cont : nat -> list nat -> S) (q a : nat) (xs : list nat) : S :=
  bsum (warcs m) (fun ar => if Nat.eqb (asrc ar) q && lbl_eqb (albl ar) a then awt ar * cont (adst ar) xs else 0).

(* (E0) with the epsilon moves written over the epsilon arcs leaving q *)
Theorem path_eq_nil_arcs : forall (m : wfsa S) (K : mat S) (q : nat),
  closure_eq_l m K -> In q (states_of m) ->
  val K m q []
  = wget (wfinal m) q
    + bsum (warcs m) (fun ar => if is_eps (albl ar) && Nat.eqb (asrc ar) q
                                then awt ar * val K m (adst ar) [] else 0).
Proof.
  intros m K q HK Hq. unfold val. rewrite (pwK_unfold S K m q [] HK Hq). f_equal.
  apply (eps_part S m q (fun j => pwK K (states_of m) m j [])).
Qed.

(* (E1) as ONE sum over the arcs leaving q: an arc is either an epsilon arc
   (word unchanged) or reads the first letter *)
Theorem path_eq_cons_onesum : forall (m : wfsa S) (K : mat S) (q a : nat) (xs : list nat),
  closure_eq_l m K -> In q (states_of m) ->
  val K m q (a :: xs)
  = bsum (warcs m) (fun ar =>
      if Nat.eqb (asrc ar) q then
        match albl ar with
        | None => awt ar * val K m (adst ar) (a :: xs)
        | Some b => if Nat.eqb a b then awt ar * val K m (adst ar) xs else 0
        end
      else 0).
Proof.
  intros m K q a xs HK Hq. unfold val.
  rewrite (pwK_unfold S K m q (a :: xs) HK Hq), (eps_part S m q (fun j => pwK K (states_of m) m j (a :: xs))).
  symmetry.
  exact (arcs_split S m q a (fun ar => awt ar * pwK K (states_of m) m (adst ar) (a :: xs))
           (fun ar => awt ar * pwK K (states_of m) m (adst ar) xs)).
Qed.

(* (E2) holds for ANY table K *)
Corollary epsremove_weight_val : forall (K : mat S) (m : wfsa S) (xs : list nat),
  weight (epsremove_with K m) xs = bsum (winit m) (fun e => snd e * val K m (fst e) xs).
Proof. intros K m xs. rewrite epsremove_matrix_form. reflexivity. Qed.

(* (E2), (E0), (E1) for the weight function w computed through the table K *)
Definition path_equations (m : wfsa S) (K : mat S) (w : list nat -> S) : Prop :=
  let st := states_of m in
  let v := val K m in
  (forall xs, w xs = bsum (winit m) (fun e => snd e * v (fst e) xs)) /\
  (forall q, In q st ->
     v q [] = wget (wfinal m) q + bsum st (fun j => epsf m q j * v j [])) /\
  (forall q a xs, In q st ->
     v q (a :: xs)
     = bsum (warcs m) (fun ar => if Nat.eqb (asrc ar) q && lbl_eqb (albl ar) a
                                 then awt ar * v (adst ar) xs else 0)
       + bsum st (fun j => epsf m q j * v j (a :: xs))).

Theorem epsremove_path_equations : forall (m : wfsa S) (K : mat S),
  closure_eq_l m K -> path_equations m K (weight (epsremove_with K m)).
Proof.
  intros m K HK. split; [|split].
  - intros xs. apply epsremove_weight_val.
  - intros q Hq. exact (pwK_unfold S K m q [] HK Hq).
  - intros q a xs Hq. exact (pwK_unfold S K m q (a :: xs) HK Hq).
Qed.

(* The symmetric closure equation K = I + K E peels off a LAST epsilon move before the
   real step (not needed for (E0)/(E1)). *)

(* the value from q BEFORE the closure table is applied: stop / real step only *)
Definition preval (K : mat S) (m : wfsa S) (q : nat) (xs : list nat) : S :=
  stepG S m (pwK K (states_of m) m) q xs.

Lemma val_preval (K : mat S) (m : wfsa S) (q : nat) (xs : list nat) :
  val K m q xs = bsum (states_of m) (fun k => mget K q k * preval K m k xs).
Proof. unfold val, preval. apply pwK_stepG. Qed.

Theorem path_eq_last : forall (m : wfsa S) (K : mat S) (q : nat) (xs : list nat),
  closure_eq_r m K -> In q (states_of m) ->
  val K m q xs
  = preval K m q xs
    + bsum (states_of m) (fun j => mget K q j * bsum (states_of m) (fun k => epsf m j k * preval K m k xs)).
Proof.
  intros m K q xs HK Hq. rewrite val_preval.
  exact (bsum_unit_plus S (states_of m) q (mget K q) (mget K q) (fun k => preval K m k xs) (epsf m)
           (states_nodup S m) Hq (fun k Hk => HK q k Hq Hk)).
Qed.

Lemma lehmann_closure_eq_l (m : wfsa S) :
  defined S (states_of m) (eps_mat m) -> closure_eq_l m (lehmann (states_of m) (eps_mat m)).
Proof. exact (lehmann_eps_closure S m). Qed.

Lemma lehmann_closure_eq_r (m : wfsa S) :
  defined S (states_of m) (eps_mat m) -> closure_eq_r m (lehmann (states_of m) (eps_mat m)).
Proof.
  intros Hdef i k Hi Hk.
  rewrite (lehmann_fixpoint_r S (states_of m) (eps_mat m) (states_nodup S m) Hdef i k Hi Hk).
  unfold fid. f_equal. apply bsum_ext; intros j Hj. rewrite mget_eps_mat by assumption. reflexivity.
Qed.

(* [call]-level statement: the library's table, given that the pivot stars met by the
   elimination are defined *)
Theorem call_path_equations : forall (m : wfsa S),
  defined S (states_of m) (eps_mat m) ->
  path_equations m (lehmann (states_of m) (eps_mat m)) (call m).
Proof.
  intros m Hdef. apply (epsremove_path_equations m), lehmann_closure_eq_l, Hdef.
Qed.

Lemma epsf_eps_free (m : wfsa S) (i j : nat) : eps_free m -> epsf m i j = 0.
Proof.
  intros Hef. unfold epsf. apply bsum_zero; intros ar Har.
  specialize (Hef ar Har). destruct (albl ar) as [b|]; [reflexivity|].
  exfalso; apply Hef; reflexivity.
Qed.

Lemma eps_sum_eps_free (m : wfsa S) (q : nat) (h : nat -> S) : eps_free m ->
  bsum (states_of m) (fun j => epsf m q j * h j) = 0.
Proof. intros Hef. apply bsum_zero; intros j _. rewrite (epsf_eps_free m q j Hef). apply smul_0_l. Qed.

(* the identity table satisfies the closure equation of an epsilon-free machine *)
Lemma idtab_closure_eq_l (m : wfsa S) : eps_free m -> closure_eq_l m (idtab S (states_of m)).
Proof.
  intros Hef i k Hi Hk. rewrite mget_idtab, (eps_sum_eps_free m i _ Hef) by assumption.
  symmetry. apply sadd_0_r.
Qed.

(* conversely the closure equation of an epsilon-free machine forces the identity on the states *)
Lemma closure_eq_l_eps_free (m : wfsa S) (K : mat S) : eps_free m -> closure_eq_l m K ->
  forall i k, In i (states_of m) -> In k (states_of m) -> mget K i k = fid i k.
Proof.
  intros Hef HK i k Hi Hk. rewrite (HK i k Hi Hk), (eps_sum_eps_free m i _ Hef).
  apply sadd_0_r.
Qed.

(* with the identity table the valuation is pw (no hypothesis on m needed) *)
Theorem val_idtab_pw : forall (m : wfsa S) (q : nat) (xs : list nat),
  In q (states_of m) -> val (idtab S (states_of m)) m q xs = pw m q xs.
Proof. intros m q xs. apply pwK_fid, mget_idtab. Qed.

(* for an epsilon-free machine EVERY table with K = I + E K gives v = pw,
   and the epsilon-removed machine has the weights of m *)
Theorem eps_free_val_pw : forall (m : wfsa S) (K : mat S) (q : nat) (xs : list nat),
  eps_free m -> closure_eq_l m K -> In q (states_of m) -> val K m q xs = pw m q xs.
Proof. intros m K q xs Hef HK. apply pwK_fid, closure_eq_l_eps_free; assumption. Qed.

Corollary eps_free_epsremove_weight : forall (m : wfsa S) (K : mat S) (xs : list nat),
  eps_free m -> closure_eq_l m K -> weight (epsremove_with K m) xs = weight m xs.
Proof.
  intros m K xs Hef HK. rewrite epsremove_weight_val, (forward_pathsum S m xs). unfold pathsum.
  apply bsum_ext; intros e He.
  rewrite (eps_free_val_pw m K (fst e) xs Hef HK (init_in_states S m e He)). reflexivity.
Qed.

(* consistency check: on an epsilon-free machine (E0)/(E1) are the defining equations of pw *)
Lemma eps_free_path_eq_is_pw (m : wfsa S) (q a : nat) (xs : list nat) :
  eps_free m ->
  pw m q [] = wget (wfinal m) q + bsum (states_of m) (fun j => epsf m q j * pw m j []) /\
  pw m q (a :: xs)
  = bsum (warcs m) (fun ar => if Nat.eqb (asrc ar) q && lbl_eqb (albl ar) a
                              then awt ar * pw m (adst ar) xs else 0)
    + bsum (states_of m) (fun j => epsf m q j * pw m j (a :: xs)).
Proof.
  intros Hef. rewrite !(eps_sum_eps_free m q _ Hef). cbn [pw]. split; symmetry; apply sadd_0_r.
Qed.

End EpsEquations.

Arguments closure_eq_l {S} m K. Arguments closure_eq_r {S} m K. Arguments val {S} K m q xs.
Arguments preval {S} K m q xs. Arguments path_equations {S} m K w.

Print Assumptions path_eq_nil_arcs.
Print Assumptions path_eq_cons_onesum.
Print Assumptions epsremove_weight_val.
Print Assumptions epsremove_path_equations.
Print Assumptions path_eq_last.
Print Assumptions call_path_equations.
Print Assumptions val_idtab_pw.
Print Assumptions eps_free_val_pw.
Print Assumptions eps_free_epsremove_weight.
