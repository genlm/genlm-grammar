(* The tabulated (chart) computation of model/Cfg.v agrees with the reference
   semantics W:  the n-th chart iterate holds W G n on every span, cfix returns a
   fixed point of cstep reached by iteration, and hence a value returned by lang
   is the stable value of the derivation sum.  Iterating a step function until two
   successive values agree (section Iterate) and looking up in an association list of
   weights (section Assoc) are stated for any step and any key; PrefixChart uses them too. *)
From Coq Require Import List Arith Bool Lia.
From GV.lib Require Import Semiring BigSum.
From GV.model Require Import Cfg.
From GV.proofs Require Import CfgTrees.
Import ListNotations.
Local Open Scope sr_scope.

Lemma skipn_cons_nth {A} (l : list A) (i : nat) (b : A) :
  nth_error l i = Some b -> skipn i l = b :: skipn (S i) l.
Proof.
  revert l. induction i as [|i IH]; intros l H; destruct l as [|a t];
    cbn [nth_error] in H; try discriminate.
  - inversion H. reflexivity.
  - change (skipn i t = b :: skipn (S i) t). apply IH. exact H.
Qed.

Lemma nth_error_defined {A} (l : list A) (i : nat) :
  (i < length l)%nat -> exists b, nth_error l i = Some b.
Proof.
  intros H. destruct (nth_error l i) as [b|] eqn:E.
  - exists b. reflexivity.
  - apply nth_error_None in E. lia.
Qed.

Lemma sub_nil {A} (l : list A) (i : nat) : sub l i i = [].
Proof. unfold sub. rewrite Nat.sub_diag. reflexivity. Qed.

Lemma sub_cons {A} (l : list A) (i j : nat) (b : A) :
  (i < j)%nat -> nth_error l i = Some b -> sub l i j = b :: sub l (S i) j.
Proof.
  intros Hij Hb. unfold sub. rewrite (skipn_cons_nth l i b Hb).
  replace (j - i)%nat with (S (j - S i)) by lia. reflexivity.
Qed.

Lemma sub_full {A} (l : list A) : sub l O (length l) = l.
Proof. unfold sub. rewrite Nat.sub_0_r. cbn [skipn]. apply firstn_all. Qed.

(* with the end written as d + i the induction on d needs no subtraction *)
Lemma splits_sub_aux {A} (l : list A) : forall d i : nat,
  (d + i <= length l)%nat ->
  splits (sub l i (d + i)) = map (fun m => (sub l i m, sub l m (d + i))) (seq i (S d)).
Proof.
  induction d as [|d IH]; intros i Hj.
  - cbn [Nat.add seq map]. rewrite sub_nil. reflexivity.
  - destruct (nth_error_defined l i) as [b Hb]; [lia|].
    rewrite <- cons_seq. cbn [map]. rewrite (sub_cons l i (S d + i) b) by (lia || exact Hb). rewrite sub_nil.
    cbn [splits]. f_equal.
    rewrite Nat.add_succ_comm, (IH (S i)) by lia.
    rewrite map_map. apply map_ext_in.
    intros m Hm. apply in_seq in Hm. cbn [fst snd].
    rewrite (sub_cons l i m b) by (lia || exact Hb). reflexivity.
Qed.

Lemma splits_sub {A} (l : list A) (i j : nat) :
  (i <= j)%nat -> (j <= length l)%nat ->
  splits (sub l i j) = map (fun m => (sub l i m, sub l m j)) (seq i (S j - i)).
Proof.
  intros Hij Hj. destruct (Nat.le_exists_sub i j Hij) as [d [-> _]].
  rewrite Nat.sub_succ_l, Nat.add_sub by apply Nat.le_add_l. apply splits_sub_aux. exact Hj.
Qed.

Lemma keyeq_spec (a b : key) : keyeq a b = true <-> a = b.
Proof.
  destruct a as [[x i] j], b as [[y k] l]. cbn [keyeq]. split.
  - intros H. apply andb_true_iff in H. destruct H as [H H3].
    apply andb_true_iff in H. destruct H as [H1 H2].
    apply Nat.eqb_eq in H1. apply Nat.eqb_eq in H2. apply Nat.eqb_eq in H3. subst. reflexivity.
  - intros E. injection E as -> -> ->. rewrite !Nat.eqb_refl. reflexivity.
Qed.

Lemma in_spans (n i j : nat) : In (i, j) (spans n) <-> (i <= j <= n)%nat.
Proof.
  unfold spans. split.
  - intros H. apply in_flat_map in H. destruct H as [i' [Hi H]]. apply in_map_iff in H. destruct H as [j' [E Hj]].
    injection E as -> ->. apply in_seq in Hi. apply in_seq in Hj. lia.
  - intros H. apply in_flat_map. exists i. split; [apply in_seq; lia|]. apply in_map, in_seq. lia.
Qed.

Section Iterate.
Context {A : Type} (step : A -> A) (eqb : A -> A -> bool).
Hypothesis eqb_eq : forall a b, eqb a b = true -> a = b.

Fixpoint iter (n : nat) (a : A) : A :=
  match n with O => a | S n' => iter n' (step a) end.

Fixpoint fixf (fuel : nat) (a : A) : option A :=
  match fuel with
  | O => None
  | S f => if eqb a (step a) then Some a else fixf f (step a)
  end.

Lemma iter_inv (P : A -> nat -> Prop) :
  (forall a k, P a k -> P (step a) (S k)) -> forall n a, P a O -> P (iter n a) n.
Proof.
  intros Hstep n a Ha.
  assert (H : forall n k a, P a k -> P (iter n a) (n + k)%nat).
  { clear n a Ha. induction n as [|n IH]; intros k a Ha; [exact Ha|].
    cbn [iter]. rewrite Nat.add_succ_comm. apply IH, Hstep, Ha. }
  specialize (H n O a Ha). rewrite Nat.add_0_r in H. exact H.
Qed.

Lemma iter_add (n m : nat) : forall a, iter (n + m) a = iter m (iter n a).
Proof. induction n as [|n IH]; intros a; [reflexivity|apply IH]. Qed.

Lemma iter_fixed (a : A) (m : nat) : step a = a -> iter m a = a.
Proof. intros H. induction m as [|m IH]; cbn [iter]; [reflexivity|]. rewrite H. exact IH. Qed.

Lemma fixf_iter : forall fuel a a',
  fixf fuel a = Some a' -> exists n, iter n a = a' /\ step a' = a'.
Proof.
  induction fuel as [|f IH]; intros a a' H; cbn [fixf] in H; [discriminate|].
  destruct (eqb a (step a)) eqn:E.
  - injection H as <-. exists O. split; [reflexivity|]. symmetry. apply eqb_eq, E.
  - destruct (IH _ _ H) as [n Hn]. exists (S n). exact Hn.
Qed.

Lemma fixf_stable fuel a a' :
  fixf fuel a = Some a' -> exists n, forall h, (n <= h)%nat -> iter h a = a'.
Proof.
  intros H. destruct (fixf_iter fuel a a' H) as [n [Hn Hfix]]. exists n. intros h Hh.
  replace h with (n + (h - n))%nat by lia. rewrite iter_add, Hn. apply iter_fixed, Hfix.
Qed.

End Iterate.

Section Assoc.
Variable S : SR.
Context {K : Type} (eqb : K -> K -> bool).
Hypothesis eqb_spec : forall a b, eqb a b = true <-> a = b.

(* cget, pget and tget are this function at their key comparison *)
Fixpoint aget (c : list (K * S)) (k : K) : S :=
  match c with [] => 0 | (k', v) :: t => if eqb k k' then v else aget t k end.

(* stated so as to cover both a table that drops its zero entries (cstep) and one that
   lists every key of a grid (pstep, tstep) *)
Lemma aget_tabulated (f : K -> S) (k : K) : forall c : list (K * S),
  (forall k' v, In (k', v) c -> v = f k') -> (f k <> 0 -> In (k, f k) c) -> aget c k = f k.
Proof.
  induction c as [|[k' v] t IH]; intros Hval Hin; cbn [aget].
  - destruct (seqb_reflect S (f k) 0) as [E|E]; [symmetry; exact E|destruct (Hin E)].
  - destruct (eqb k k') eqn:E.
    + apply eqb_spec in E. subst k'. apply Hval. left; reflexivity.
    + apply IH.
      * intros k2 v2 H2. apply Hval. right; exact H2.
      * intros Hk. destruct (Hin Hk) as [H|H]; [|exact H].
        injection H as -> _. rewrite (proj2 (eqb_spec k k) eq_refl) in E. discriminate.
Qed.

(* the comparison used by pchart_eqb and tchart_eqb decides equality *)
Lemma assoc_eqb_eq : forall a b : list (K * S),
  Nat.eqb (length a) (length b)
  && forallb (fun e => eqb (fst (fst e)) (fst (snd e)) && seqb (snd (fst e)) (snd (snd e)))
             (combine a b) = true -> a = b.
Proof.
  induction a as [|[k v] a IH]; intros [|[k' v'] b] H; try discriminate; [reflexivity|].
  cbn [length Nat.eqb combine forallb fst snd] in H.
  apply andb_true_iff in H. destruct H as [Hl H]. apply andb_true_iff in H. destruct H as [Hkv H].
  apply andb_true_iff in Hkv. destruct Hkv as [Hk Hv].
  apply eqb_spec in Hk. apply seqb_spec in Hv. subst k' v'. f_equal.
  apply IH. rewrite Hl. exact H.
Qed.

End Assoc.

Section Chart.
Variable S : SR.
Add Ring SRing : (sth S).

Section Fixed.
Variable G : grammar S.
Variable xs : list nat.

Definition cval (c : chart S) (X i j : nat) : S :=
  bsum G (fun r => if Nat.eqb (rhead r) X then rw r * body_w S c xs (rbody r) i j else 0).

(* cstep lists the non-zero values of cval over the heads and the spans *)
Lemma cstep_sound (c : chart S) (k : key) (v : S) :
  In (k, v) (cstep G xs c) -> v = cval c (fst (fst k)) (snd (fst k)) (snd k).
Proof.
  unfold cstep. intros H. apply in_flat_map in H. destruct H as [X [_ H]].
  apply in_flat_map in H. destruct H as [ij [_ H]]. cbv zeta in H.
  destruct (seqb _ 0) in H; [destruct H|]. destruct H as [H|[]]. injection H as <- <-. reflexivity.
Qed.

Lemma cstep_complete (c : chart S) (X i j : nat) :
  In X (heads S G) -> (i <= j <= length xs)%nat -> cval c X i j <> 0 ->
  In ((X, i, j), cval c X i j) (cstep G xs c).
Proof.
  intros HX Hij Hv. unfold cstep. apply in_flat_map. exists X. split; [exact HX|].
  apply in_flat_map. exists (i, j). split; [apply in_spans; exact Hij|].
  cbv zeta. cbn [fst snd]. fold (cval c X i j).
  destruct (seqb_reflect S (cval c X i j) 0) as [E|_]; [destruct (Hv E)|left; reflexivity].
Qed.

Lemma cget_cstep (c : chart S) (X i j : nat) :
  (i <= j)%nat -> (j <= length xs)%nat ->
  cget (cstep G xs c) (X, i, j) = cval c X i j.
Proof.
  intros Hij Hj.
  apply (aget_tabulated S keyeq keyeq_spec (fun k => cval c (fst (fst k)) (snd (fst k)) (snd k)) (X, i, j)).
  - apply cstep_sound.
  - cbn [fst snd]. intros Hv.
    exact (cstep_complete c X i j (bsum_head_nonzero S G X _ Hv) (conj Hij Hj) Hv).
Qed.

Definition chart_ok (c : chart S) (n : nat) : Prop :=
  forall X i j, (i <= j)%nat -> (j <= length xs)%nat ->
    cget c (X, i, j) = W G n X (sub xs i j).

Lemma body_w_ok (c : chart S) (n : nat) : chart_ok c n ->
  forall body i j, (i <= j)%nat -> (j <= length xs)%nat ->
    body_w S c xs body i j = Wb (W G n) body (sub xs i j).
Proof.
  intros Hc body. induction body as [|s rest IH]; intros i j Hij Hj.
  - cbn [body_w Wb]. destruct (Nat.eqb_spec i j) as [E|E].
    + subst j. rewrite sub_nil. reflexivity.
    + destruct (nth_error_defined xs i) as [b Hb]; [lia|].
      rewrite (sub_cons xs i j b) by (lia || exact Hb). reflexivity.
  - destruct s as [a|Y].
    + cbn [body_w Wb]. destruct (Nat.ltb_spec i j) as [L|L].
      * destruct (nth_error_defined xs i) as [b Hb]; [lia|].
        rewrite Hb. rewrite (sub_cons xs i j b L Hb).
        destruct (Nat.eqb a b); [|reflexivity].
        apply IH; lia.
      * assert (E : i = j) by lia. subst j. rewrite sub_nil. reflexivity.
    + cbn [body_w Wb]. rewrite (splits_sub xs i j Hij Hj).
      rewrite bsum_map. apply bsum_ext. intros m Hm.
      apply in_seq in Hm. cbn [fst snd].
      rewrite (Hc Y i m) by lia. rewrite (IH m j) by lia.
      (* body_w skips the zero entries of the chart: the products it leaves out are zero *)
      destruct (seqb (W G n Y (sub xs i m)) 0) eqn:E; [|reflexivity].
      apply seqb_spec in E. rewrite E. symmetry. apply smul_0_l.
Qed.

Lemma chart_ok_nil : chart_ok [] O.
Proof. intros X i j _ _. reflexivity. Qed.

Lemma chart_ok_step (c : chart S) (n : nat) :
  chart_ok c n -> chart_ok (cstep G xs c) (Datatypes.S n).
Proof.
  intros Hc X i j Hij Hj. rewrite (cget_cstep c X i j Hij Hj).
  apply bsum_head_ext. intros r _ _.
  rewrite (body_w_ok c n Hc (rbody r) i j Hij Hj). reflexivity.
Qed.

Lemma citer_iter (n : nat) : forall c : chart S, citer G xs n c = iter (cstep G xs) n c.
Proof. induction n as [|n IH]; intros c; [reflexivity|apply IH]. Qed.

Lemma cfix_fixf (fuel : nat) : forall c : chart S,
  cfix G xs fuel c = fixf (cstep G xs) (chart_eqb S) fuel c.
Proof. induction fuel as [|f IH]; intros c; [reflexivity|]. cbn [cfix fixf]. rewrite IH. reflexivity. Qed.

End Fixed.

Lemma chart_eqb_eq (a : chart S) : forall b, chart_eqb S a b = true -> a = b.
Proof.
  induction a as [|[k v] s IH]; intros [|[k' v'] t] H; try discriminate; [reflexivity|].
  cbn [chart_eqb] in H. apply andb_true_iff in H. destruct H as [H H3].
  apply andb_true_iff in H. destruct H as [H1 H2].
  apply keyeq_spec in H1. apply seqb_spec in H2. apply IH in H3. subst. reflexivity.
Qed.

Theorem citer_W : forall (G : grammar S) (xs : list nat) (n X i j : nat),
  (i <= j)%nat -> (j <= length xs)%nat ->
  cget (citer G xs n []) (X, i, j) = W G n X (sub xs i j).
Proof.
  intros G xs n. rewrite citer_iter.
  exact (iter_inv (cstep G xs) (chart_ok G xs) (chart_ok_step G xs) n [] (chart_ok_nil G xs)).
Qed.

Theorem cfix_citer : forall (G : grammar S) xs fuel c c',
  cfix G xs fuel c = Some c' ->
  exists n, citer G xs n c = c' /\ cstep G xs c' = c'.
Proof.
  intros G xs fuel c c' H. rewrite cfix_fixf in H.
  destruct (fixf_iter _ _ chart_eqb_eq _ _ _ H) as [n Hn]. exists n. rewrite citer_iter. exact Hn.
Qed.

Theorem lang_stable : forall (G : grammar S) fuel X xs v,
  lang G fuel X xs = Some v -> stable S G X xs v.
Proof.
  intros G fuel X xs v H. unfold lang in H. rewrite cfix_fixf in H.
  destruct (fixf (cstep G xs) (chart_eqb S) fuel []) as [c'|] eqn:E; [|discriminate].
  injection H as <-.
  destruct (fixf_stable _ _ chart_eqb_eq _ _ _ E) as [n Hn].
  exists n. intros h Hh. rewrite <- (Hn h Hh), <- citer_iter.
  pose proof (citer_W G xs h X O (length xs) (Nat.le_0_l _) (le_n _)) as HW.
  rewrite sub_full in HW. symmetry. exact HW.
Qed.

End Chart.

Print Assumptions citer_W.
Print Assumptions cfix_citer.
Print Assumptions lang_stable.
