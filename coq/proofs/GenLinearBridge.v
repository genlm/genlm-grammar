(* The arithmetic of linear.py as regenerated (gen/Gen_Linear.v) is the arithmetic of the models
   of model/Linear.v: elimination step, reflexive step, block solvers.  Proved by conversion, so
   the ORDER of the factors is checked too. *)
From Coq Require Import List Arith.
From GV.lib Require Import Semiring BigSum.
From GV.model Require Import Linear.
From GV.gen Require Import Gen_Linear.
Import ListNotations.
Local Open Scope sr_scope.

Section Bridge.
Variable S : StarSR.

Theorem gen_elim_step_model (nodes : list nat) (j : nat) (old : mat S) :
  elim_step nodes j old =
  tabulate nodes (fun i k => gen_elim_upd S (mget old i k) (mget old i j) (sstar S (mget old j j)) (mget old j k)).
Proof. reflexivity. Qed.

Theorem gen_lehmann_refl_model (nodes : list nat) (A : mat S) :
  lehmann nodes A =
  tabulate nodes (fun i k => if Nat.eqb i k then gen_refl_upd S (mget (lehmann_trans nodes A) i k) else mget (lehmann_trans nodes A) i k).
Proof. reflexivity. Qed.

Theorem gen_solve_left_block_model (allnodes : list nat) (A : mat S) (b sol : vec S) (block : list nat) :
  solve_left_block S allnodes A b sol block =
  (let B := block_closure block A in
   let enter := map (fun j => (j, vget b j + bsum allnodes (fun i => gen_left_enter S (vget sol i) (mget A i j)))) block in
   sol ++ flat_map (fun e => map (fun k => (k, gen_left_complete S (snd e) (mget B (fst e) k))) block) enter).
Proof. reflexivity. Qed.

Theorem gen_solve_right_block_model (allnodes : list nat) (A : mat S) (b sol : vec S) (block : list nat) :
  solve_right_block S allnodes A b sol block =
  (let B := block_closure block A in
   let enter := map (fun j => (j, vget b j + bsum allnodes (fun k => gen_right_enter S (mget A j k) (vget sol k)))) block in
   sol ++ flat_map (fun e => map (fun i => (i, gen_right_complete S (mget B i (fst e)) (snd e))) block) enter).
Proof. reflexivity. Qed.

End Bridge.

Print Assumptions gen_elim_step_model.
Print Assumptions gen_lehmann_refl_model.
Print Assumptions gen_solve_left_block_model.
Print Assumptions gen_solve_right_block_model.
