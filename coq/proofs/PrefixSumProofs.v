(* The REFERENCE prefix weight Wpre (model/Prefix.v) satisfies the prefix-sum identity
       Wpre(p) = W(p) + sum_{t in V} Wpre(p ++ [t])
   at every height, over any commutative semiring, for every grammar whose terminals are
   among the (duplicate-free) token list V.  This is the hypothesis that the chain rule
   (NormProofs.chain_rule, props/C04.v) asks of the prefix weights; instantiating it gives
   the chain rule for the language model whose next-token weights are the reference
   prefix weights. *)
From Coq Require Import List Lia QArith Qcanon.
From GV.lib Require Import Semiring BigSum.
From GV.model Require Import Cfg MachSpec Prefix Norm.
From GV.proofs Require Import CfgTrees PrefixTrees TotalStringsProofs NormProofs.
Import ListNotations.
Local Open Scope nat_scope.
Local Open Scope sr_scope.

Section PrefixSplit.
Variable S : SR.
Add Ring PSRing : (sth S).

(* p is a prefix of y iff y = p or p ++ [t] is a prefix of y for exactly one token t *)
Lemma prefix_split_sr (V : list nat) (HV : NoDup V) (w : S) : forall (p y : list nat),
  (forall x, In x y -> In x V) ->
  (if is_prefix p y then w else 0)
  = (if list_eqb Nat.eqb y p then w else 0)
    + bsum V (fun t => if is_prefix (p ++ [t]) y then w else 0).
Proof.
  induction p as [|a p IH]; intros y Hy.
  - destruct y as [|b y].
    + cbn [app is_prefix list_eqb]. rewrite bsum_zero by (intros; reflexivity). symmetry. apply sadd_0_r.
    + cbn [app is_prefix list_eqb].
      rewrite (bsum_ext S V _ (fun t => if Nat.eqb t b then w else 0))
        by (intros t _; rewrite andb_true_r; reflexivity).
      rewrite (bsum_pick S V b (fun _ => w) HV) by (apply Hy; left; reflexivity). symmetry. apply sadd_0_l.
  - destruct y as [|b y].
    + cbn [app is_prefix list_eqb]. rewrite bsum_zero by (intros; reflexivity). symmetry. apply sadd_0_r.
    + cbn [app is_prefix list_eqb]. rewrite (Nat.eqb_sym b a). destruct (Nat.eqb a b); cbn [andb].
      * apply IH. intros x Hx. apply Hy. right; exact Hx.
      * rewrite bsum_zero by (intros; reflexivity). symmetry. apply sadd_0_r.
Qed.

Theorem prefix_sum_identity : forall (G : grammar S) (V : list nat), NoDup V ->
  (forall r a, In r G -> In (T a) (rbody r) -> In a V) ->
  forall h X p, Wpre G h X p = W G h X p + bsum V (fun t => Wpre G h X (p ++ [t])).
Proof.
  intros G V HV HT h X p.
  transitivity (bsum (trees G h X) (fun tr => if yields p tr then tweight tr else 0)
                + bsum V (fun t => bsum (trees G h X) (fun tr =>
                    if is_prefix (p ++ [t]) (tyield tr) then tweight tr else 0))).
  2:{ f_equal.
      - rewrite W_trees, bsum_filter. reflexivity.
      - apply bsum_ext; intros t _. rewrite Wpre_trees, bsum_filter. reflexivity. }
  rewrite Wpre_trees, bsum_filter, bsum_swap, <- bsum_add.
  apply bsum_ext; intros tr Htr. unfold yields.
  apply prefix_split_sr; [exact HV|].
  exact (trees_yield_in S G (fun a => In a V) HT h X tr Htr).
Qed.

End PrefixSplit.

Lemma prefix_split : forall (V : list nat) (p y : list nat), NoDup V -> (forall x, In x y -> In x V) ->
  forall (S : SR) (w : S),
  (if is_prefix p y then w else 0)
  = (if list_eqb Nat.eqb y p then w else 0) + bsum V (fun t => if is_prefix (p ++ [t]) y then w else 0).
Proof. intros V p y HV Hy S w. apply prefix_split_sr; assumption. Qed.

(* unnormalised next-token weights of the reference model: a token t of V gets the prefix
   weight of context + t, eos gets the weight of the context as a complete string *)
Definition ref_nw (F : FR) (G : grammar F) (h s eos : nat) (ctx : list nat) (t : nat) : F :=
  if Nat.eqb t eos then W G h s ctx else Wpre G h s (ctx ++ [t]).

Theorem reference_chain_rule : forall (F : FR) (G : grammar F) (V : list nat) (h s eos : nat),
  NoDup V -> ~ In eos V ->
  (forall r a, In r G -> In (T a) (rbody r) -> In a V) ->
  forall xs ctx, (forall x, In x xs -> In x V) ->
    (forall k, k <= length xs -> Wpre G h s (ctx ++ firstn k xs) <> s0) ->
    chain V eos (ref_nw F G h s eos) ctx xs = fdiv F (W G h s (ctx ++ xs)) (Wpre G h s ctx).
Proof.
  intros F G V h s eos HV Hne HT xs ctx Hxs Hnz.
  apply (chain_rule F V eos (ref_nw F G h s eos) (Wpre G h s) (W G h s)).
  - intros c t Ht. unfold ref_nw.
    replace (Nat.eqb t eos) with false; [reflexivity|].
    symmetry. apply Nat.eqb_neq. intros E. subst t. exact (Hne Ht).
  - intros c. unfold ref_nw. rewrite Nat.eqb_refl. reflexivity.
  - intros c. apply (prefix_sum_identity F G V HV HT).
  - exact Hne.
  - exact Hxs.
  - exact Hnz.
Qed.

Print Assumptions prefix_split.
Print Assumptions prefix_sum_identity.
Print Assumptions reference_chain_rule.

Local Close Scope sr_scope.

Definition ps_G : grammar QcFR :=
  [ (mkq 1 2, 0, [T 1; N 1]); (mkq 1 3, 1, [T 0]); (mkq 1 5, 1, []) ].

Ltac ps_qc := apply Qc_is_canon; vm_compute; reflexivity.

Example prefix_sum_instance :
  Wpre ps_G 3 0 [1] = mkq 4 15 /\
  W ps_G 3 0 [1] = mkq 1 10 /\
  Wpre ps_G 3 0 [1; 0] = mkq 1 6 /\
  Wpre ps_G 3 0 [1; 1] = mkq 0 1 /\
  Wpre ps_G 3 0 [1] = sadd (W ps_G 3 0 [1]) (sadd (Wpre ps_G 3 0 [1; 0]) (Wpre ps_G 3 0 [1; 1])) /\
  chain [0; 1] 2 (ref_nw QcFR ps_G 3 0 2) [] [1; 0] = mkq 5 8 /\
  fdiv QcFR (mkq 1 6) (mkq 4 15) = mkq 5 8.
Proof. repeat split; ps_qc. Qed.

Lemma ps_G_terminals : forall r a, In r ps_G -> In (T a) (rbody r) -> In a [0; 1].
Proof. apply terminals_in_ok. reflexivity. Qed.

Example prefix_sum_instance_thm :
  Wpre ps_G 3 0 [1] = sadd (W ps_G 3 0 [1]) (bsum [0; 1] (fun t => Wpre ps_G 3 0 ([1] ++ [t]))).
Proof. exact (prefix_sum_identity QcFR ps_G [0; 1] NoDup_01 ps_G_terminals 3 0 [1]). Qed.

Example reference_chain_instance_thm :
  chain [0; 1] 2 (ref_nw QcFR ps_G 3 0 2) [] [1; 0]
  = fdiv QcFR (W ps_G 3 0 ([] ++ [1; 0])) (Wpre ps_G 3 0 []).
Proof.
  apply (reference_chain_rule QcFR ps_G [0; 1] 3 0 2 NoDup_01).
  - intros [E|[E|[]]]; discriminate.
  - exact ps_G_terminals.
  - intros x [<-|[<-|[]]]; [right; left|left]; reflexivity.
  - intros k Hk. simpl in Hk.
    assert (Hc : k = 0 \/ k = 1 \/ k = 2) by lia.
    destruct Hc as [E|[E|E]]; subst k; vm_compute; discriminate.
Qed.

Print Assumptions prefix_sum_instance.
Print Assumptions prefix_sum_instance_thm.
Print Assumptions reference_chain_instance_thm.
