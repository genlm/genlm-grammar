(* WFSA._trim ([wtrim K m] is self._trim(K)): restricting a machine to a set of states does not change its weights when
   the removed states are unreachable (the kept set contains the initial states and is closed
   under successors) or dead (nothing is accepted from them). *)
From Coq Require Import List Arith Bool.
From GV.lib Require Import Semiring BigSum.
From GV.model Require Import Wfsa TrimW.
From GV.proofs Require Export WfsaProofs.
Import ListNotations.
Local Open Scope sr_scope.

Section TrimWProofs.
Variable S : SR.
Add Ring SRing : (sth S).

Definition closed_succ (m : wfsa S) (K : list nat) : Prop :=
  forall ar, In ar (warcs m) -> inb (asrc ar) K = true -> inb (adst ar) K = true.
(* nothing is accepted from q *)
Definition dead (m : wfsa S) (q : nat) : Prop := forall xs, pw m q xs = 0.

Lemma winit_wtrim (K : list nat) (m : wfsa S) :
  winit (wtrim K m) = filter (fun e => inb (fst e) K) (winit m).
Proof. reflexivity. Qed.
Lemma wfinal_wtrim (K : list nat) (m : wfsa S) :
  wfinal (wtrim K m) = filter (fun e => inb (fst e) K) (wfinal m).
Proof. reflexivity. Qed.
Lemma warcs_wtrim (K : list nat) (m : wfsa S) :
  warcs (wtrim K m) = filter (fun ar => inb (asrc ar) K && inb (adst ar) K) (warcs m).
Proof. reflexivity. Qed.

Lemma wget_filter (K : list nat) (v : list (nat * S)) (q : nat) :
  inb q K = true -> wget (filter (fun e => inb (fst e) K) v) q = wget v q.
Proof.
  intros Hq. unfold wget. rewrite bsum_filter. apply bsum_ext. intros e _.
  destruct (Nat.eqb q (fst e)) eqn:E.
  - apply Nat.eqb_eq in E. rewrite <- E, Hq. reflexivity.
  - destruct (inb (fst e) K); reflexivity.
Qed.

(* Both uses of _trim are instances of one fact: nothing changes if the arcs that leave K, and the initial
   entries outside K, lead to dead states. *)
Lemma trim_pw (m : wfsa S) (K : list nat) :
  (forall ar, In ar (warcs m) -> inb (asrc ar) K = true -> inb (adst ar) K = false -> dead m (adst ar)) ->
  forall xs q, inb q K = true -> pw (wtrim K m) q xs = pw m q xs.
Proof.
  intros Hc. induction xs as [|a xs IH]; intros q Hq.
  - rewrite !pw_nil, wfinal_wtrim. apply wget_filter; exact Hq.
  - rewrite !pw_cons, warcs_wtrim. unfold outs. rewrite bsum_filter. apply bsum_ext. intros ar Har.
    destruct (Nat.eqb (asrc ar) q) eqn:E; cbn [andb]; [|destruct (inb (asrc ar) K && inb (adst ar) K); reflexivity].
    apply Nat.eqb_eq in E. subst q. rewrite Hq. cbn [andb].
    destruct (inb (adst ar) K) eqn:Hd.
    + rewrite (IH (adst ar) Hd). reflexivity.
    + rewrite (Hc ar Har Hq Hd xs). destruct (lbl_eqb (albl ar) a); ring.
Qed.

Theorem trim_weight (m : wfsa S) (K : list nat) :
  (forall ar, In ar (warcs m) -> inb (asrc ar) K = true -> inb (adst ar) K = false -> dead m (adst ar)) ->
  (forall e, In e (winit m) -> inb (fst e) K = false -> dead m (fst e)) ->
  forall xs, weight (wtrim K m) xs = weight m xs.
Proof.
  intros Hc Hi xs. rewrite !forward_pathsum. unfold pathsum.
  rewrite winit_wtrim, bsum_filter. apply bsum_ext. intros e He.
  destruct (inb (fst e) K) eqn:Hk.
  - rewrite (trim_pw m K Hc xs (fst e) Hk). reflexivity.
  - rewrite (Hi e He Hk xs). ring.
Qed.

Theorem trim_accessible_weight : forall (m : wfsa S) (K : list nat), closed_succ m K ->
  (forall e, In e (winit m) -> inb (fst e) K = true) ->
  forall xs, weight (wtrim K m) xs = weight m xs.
Proof.
  intros m K Hc Hi. apply trim_weight.
  - intros ar Har Hs Hd. rewrite (Hc ar Har Hs) in Hd. discriminate Hd.
  - intros e He Hk. rewrite (Hi e He) in Hk. discriminate Hk.
Qed.

Theorem trim_dead_weight : forall (m : wfsa S) (K : list nat), (forall q, inb q K = false -> dead m q) ->
  forall xs, weight (wtrim K m) xs = weight m xs.
Proof. intros m K Hdead. apply trim_weight; intros; apply Hdead; assumption. Qed.

(* WFSA.trim keeps accessible() & co_accessible() in one pass; here the two restrictions are
   composed, the second set being judged in the machine already cut down to the first *)

Theorem trim_both_weight : forall (m : wfsa S) (K1 K2 : list nat), closed_succ m K1 ->
  (forall e, In e (winit m) -> inb (fst e) K1 = true) ->
  (forall q, inb q K2 = false -> dead (wtrim K1 m) q) ->
  forall xs, weight (wtrim K2 (wtrim K1 m)) xs = weight m xs.
Proof.
  intros m K1 K2 Hc Hi Hdead xs.
  rewrite (trim_dead_weight (wtrim K1 m) K2 Hdead xs).
  apply trim_accessible_weight; assumption.
Qed.

End TrimWProofs.

Print Assumptions trim_accessible_weight.
Print Assumptions trim_dead_weight.
Print Assumptions trim_both_weight.
