(* The top-down half of CFG.trim as modelled in model/TopDown.v.  Everything named reachable_* here is about
   TopDown.reachable G s, the set T that trim computes: the nonterminals reached from a generating start symbol
   through rules whose bodies are generating ([reach_rel]).  (UsefulProofs.v has lemmas of the same names about
   Useful.reachable s G, the checker's plain reachability.)  The set is closed under those rules, which is the
   hypothesis of topdown_trim_W; so the modelled trim preserves every derivation sum from the start symbol and
   from every reached nonterminal.
   cfg.py finds T with a worklist over the rules indexed by head, the model by S |G| sweeps of the rule list; as
   for the generating set, only the set matters, and [reachable_sound]/[reachable_complete] characterise it. *)
From Coq Require Import List BinInt Bool Lia.
From GV.lib Require Import Semiring.
From GV.model Require Import Cfg Transform TopDown.
From GV.proofs Require Import Closure TrimProofs TopDownTrimProofs.
Import ListNotations.
Local Open Scope sr_scope.

Section ReachProofs.
Variable S : SR.

(* the search as a saturation: a rule with a reached head and a body inside C asks for its body nonterminals *)
Definition td_guard (C R : list nat) (r : rule S) : bool :=
  existsb (Nat.eqb (rhead r)) R && forallb (gen_sym C) (rbody r).
Definition td_tgt (r : rule S) : list nat := body_nts (rbody r).

Lemma td_reach_iter_sat (G : grammar S) C : forall n R, reach_iter G C n R = sat_iter (td_guard C) td_tgt G n R.
Proof. apply (sat_iter_unique _ _ _ (reach_pass G C)); reflexivity. Qed.

Lemma td_guard_spec C R (r : rule S) :
  td_guard C R r = true <-> In (rhead r) R /\ forallb (gen_sym C) (rbody r) = true.
Proof. unfold td_guard. rewrite andb_true_iff, mem_spec. reflexivity. Qed.

(* everything reached lies inside C *)
Lemma td_bound (G : grammar S) C : sat_bound (td_guard C) td_tgt G C.
Proof.
  intros R r _ _ Hg y Hy. apply td_guard_spec in Hg.
  exact (proj1 (gen_sym_all C (rbody r)) (proj2 Hg) y (proj1 (body_nts_In _ _) Hy)).
Qed.

Lemma reachable_cases (G : grammar S) (s : nat) :
  (In s (generating G) /\ reachable G s = sat_iter (td_guard (generating G)) td_tgt G (Datatypes.S (length G)) [s]) \/
  (~ In s (generating G) /\ reachable G s = []).
Proof.
  unfold reachable. cbv zeta. rewrite td_reach_iter_sat.
  destruct (existsb (Nat.eqb s) (generating G)) eqn:Es; [left; apply mem_spec in Es|right; apply mem_false in Es];
    split; trivial.
Qed.

Theorem reachable_closed : forall (G : grammar S) (s : nat) (r : rule S),
  In r G -> In (rhead r) (reachable G s) -> forallb (gen_sym (generating G)) (rbody r) = true ->
  forall Y, In (N Y) (rbody r) -> In Y (reachable G s).
Proof.
  intros G s r Hr. destruct (reachable_cases G s) as [[Hs ->]|[_ ->]]; [|intros []]. intros Hh Hb Y HY.
  apply (sat_iter_closed _ _ G _ (td_bound G _) _ [s]) with (a := r);
    [repeat constructor; intros []|intros x [<-|[]]; exact Hs| |exact Hr|apply td_guard_spec; split; assumption|apply body_nts_In, HY].
  (* the fuel S |G| of model/TopDown.v: the set stays inside generating G, which has at most |G| members *)
  pose proof (generating_length S G). simpl. lia.
Qed.

Theorem reachable_start : forall (G : grammar S) (s : nat), In s (generating G) -> In s (reachable G s).
Proof.
  intros G s Hs. destruct (reachable_cases G s) as [[_ ->]|[H _]]; [|destruct (H Hs)].
  apply (extends_incl _ _ (sat_iter_extends _ _ G _ [s])). left; reflexivity.
Qed.

Theorem reachable_generating : forall (G : grammar S) (s X : nat), In X (reachable G s) -> In X (generating G).
Proof.
  intros G s X. destruct (reachable_cases G s) as [[Hs ->]|[_ ->]]; [|intros []].
  apply sat_iter_bound; [apply td_bound|]. intros x [<-|[]]. exact Hs.
Qed.

(* a non-generating start symbol reaches nothing *)
Lemma reachable_dead_start (G : grammar S) (s : nat) : ~ In s (generating G) -> reachable G s = [].
Proof. intros Hs. destruct (reachable_cases G s) as [[H _]|[_ E]]; [destruct (Hs H)|exact E]. Qed.

Lemma keep_nts_all (R : list nat) (b : list sym) :
  forallb (keep_nts R) b = true <-> (forall y, In (N y) b -> In y R).
Proof. exact (gen_sym_all R b). Qed.

Theorem reachable_td_closed : forall (G : grammar S) (s : nat), td_closed G (keep_nts (reachable G s)).
Proof.
  intros G s r Hr Hk. simpl in Hk. apply mem_spec in Hk.
  destruct (forallb (gen_sym (generating G)) (rbody r)) eqn:Eb.
  - left. apply keep_nts_all. exact (reachable_closed G s r Hr Hk Eb).
  - right. exact (gen_sym_not_all _ _ Eb).
Qed.

Theorem trim_model_W_reached : forall (G : grammar S) (s X : nat) h xs,
  In X (reachable G s) -> W (trim_model s G) h X xs = W G h X xs.
Proof.
  intros G s X h xs HX. unfold trim_model.
  apply topdown_trim_W; [apply reachable_td_closed|]. simpl. apply mem_spec; assumption.
Qed.

Lemma trim_model_dead_start (G : grammar S) (s : nat) : ~ In s (generating G) -> trim_model s G = [].
Proof.
  intros Hs. unfold trim_model. rewrite (reachable_dead_start G s Hs). apply gen_trim_none. reflexivity.
Qed.

Theorem trim_model_W : forall (G : grammar S) (s : nat) h xs, W (trim_model s G) h s xs = W G h s xs.
Proof.
  intros G s h xs.
  destruct (existsb (Nat.eqb s) (generating G)) eqn:Es.
  - apply mem_spec in Es. apply trim_model_W_reached. apply reachable_start; assumption.
  - apply mem_false in Es. rewrite (trim_model_dead_start G s Es).
    rewrite (nongenerating_W_zero S G s Es h xs).
    destruct h; reflexivity.
Qed.

Inductive reach_rel (G : grammar S) (s : nat) : nat -> Prop :=
| rr_start : reach_rel G s s
| rr_step : forall r Y, In r G -> reach_rel G s (rhead r) ->
    forallb (gen_sym (generating G)) (rbody r) = true -> In (N Y) (rbody r) -> reach_rel G s Y.

Theorem reachable_sound : forall (G : grammar S) (s X : nat), In X (reachable G s) -> reach_rel G s X.
Proof.
  intros G s X. destruct (reachable_cases G s) as [[_ ->]|[_ ->]]; [|intros []]. revert X. apply sat_iter_sound.
  - intros R r Y Hr HR Hg HY. apply td_guard_spec in Hg.
    exact (rr_step G s r Y Hr (HR _ (proj1 Hg)) (proj2 Hg) (proj1 (body_nts_In _ _) HY)).
  - intros X [<-|[]]. apply rr_start.
Qed.

Theorem reachable_complete : forall (G : grammar S) (s X : nat),
  In s (generating G) -> reach_rel G s X -> In X (reachable G s).
Proof.
  intros G s X Hs H. induction H as [|r Y Hr _ IH Hb HY].
  - apply reachable_start; assumption.
  - apply (reachable_closed G s r Hr IH Hb Y HY).
Qed.

End ReachProofs.
Arguments reach_rel {S} G s _.

Print Assumptions reachable_closed.
Print Assumptions reachable_td_closed.
Print Assumptions reachable_start.
Print Assumptions reachable_generating.
Print Assumptions trim_model_W.
Print Assumptions trim_model_W_reached.
Print Assumptions reachable_sound.
Print Assumptions reachable_complete.

(* td_ex_G of TopDownTrimProofs.v, start 0;  0 -> a | 1 b | 3;  1 -> a;  2 -> b [unreachable];  3 -> 3 [non-generating] *)
Example reach_ex_reachable : reachable td_ex_G 0 = [1%nat; O].
Proof. vm_compute. reflexivity. Qed.

Example reach_ex_trimmed :
  trim_model 0 td_ex_G =
  [ ((mkq 1%Z 2%positive : QcSR), O, [T O]);
    (mkq 1%Z 3%positive, O, [N 1%nat; T 1%nat]);
    (mkq 1%Z 5%positive, 1%nat, [T O]) ].
Proof. vm_compute. reflexivity. Qed.

(* a non-generating start symbol: nothing is reached and the trimmed grammar is empty *)
Example reach_ex_dead : reachable td_ex_G 3 = [] /\ trim_model 3 td_ex_G = [].
Proof. vm_compute. split; reflexivity. Qed.

Example reach_ex_instance : forall h xs, W (trim_model 0 td_ex_G) h O xs = W td_ex_G h O xs.
Proof. intros h xs. apply trim_model_W. Qed.

Print Assumptions reach_ex_reachable.
Print Assumptions reach_ex_trimmed.
Print Assumptions reach_ex_dead.
Print Assumptions reach_ex_instance.
