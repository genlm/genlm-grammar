(* separate_terminals (model/Transform2.v) preserves the weighted language, in the
   strongest form available over an arbitrary commutative semiring: there is a
   weight- and yield-preserving one-to-one correspondence [phi]/[psi] between the
   derivation trees of G and those of G' := separate_terminals pt G, for every
   nonterminal that is not a preterminal name. *)
From Coq Require Import List Arith Lia.
From GV.lib Require Import Semiring BigSum.
From GV.model Require Import Cfg Transform2.
From GV.proofs Require Import CfgTrees TreeMaps.
Import ListNotations.
Local Open Scope sr_scope.

(* position of the first occurrence of a in l (length l when absent) *)
Fixpoint pos (a : nat) (l : list nat) : nat :=
  match l with
  | [] => O
  | b :: t => if Nat.eqb a b then O else Datatypes.S (pos a t)
  end.

Lemma pos_nth : forall l a, In a l -> nth_error l (pos a l) = Some a.
Proof.
  induction l as [|b t IH]; intros a Hin; [destruct Hin|].
  simpl. destruct (Nat.eqb a b) eqn:E.
  - apply Nat.eqb_eq in E. subst b. reflexivity.
  - destruct Hin as [Hin|Hin].
    + subst b. rewrite Nat.eqb_refl in E. discriminate.
    + simpl. apply IH. exact Hin.
Qed.

Lemma pos_lt : forall l a, In a l -> pos a l < length l.
Proof.
  intros l a Hin. apply nth_error_Some. rewrite (pos_nth l a Hin). discriminate.
Qed.

Lemma nth_pos : forall l k a, NoDup l -> nth_error l k = Some a -> pos a l = k.
Proof.
  induction l as [|b t IH]; intros k a Hnd Hk.
  - destruct k; discriminate.
  - inversion Hnd as [|b' t' Hnotin Hnd']; subst b' t'.
    destruct k as [|k]; simpl in Hk.
    + injection Hk as Hk. subst b. simpl. rewrite Nat.eqb_refl. reflexivity.
    + simpl. destruct (Nat.eqb a b) eqn:E.
      * apply Nat.eqb_eq in E. subst b. exfalso. apply Hnotin.
        apply (nth_error_In t k Hk).
      * f_equal. apply IH; assumption.
Qed.

Section SepTerm.
Variable S : SR.
Variable pt : nat -> nat.
Variable G : grammar S.

Hypothesis Hinj : forall a b, pt a = pt b -> a = b.
Hypothesis Hfresh : forall a r, In r G -> rhead r <> pt a /\ ~ In (N (pt a)) (rbody r).

Definition TL : list nat := terminals_of G.
Definition K : nat := length TL.
Definition G' : grammar S := separate_terminals pt G.

Definition is_unit (b : list sym) : bool := match b with [T _] => true | _ => false end.

Definition sep_rule (r : rule S) : rule S :=
  match rbody r with
  | [T _] => r
  | b => (rw r, rhead r, map (sep_sym pt) b)
  end.

Definition pre_rule (a : nat) : rule S := (1, pt a, [T a]).

Lemma G'_eq : G' = map pre_rule TL ++ map sep_rule G.
Proof. reflexivity. Qed.

Lemma is_unit_true b : is_unit b = true -> exists a, b = [T a].
Proof.
  destruct b as [|[a|x] [|s t]]; simpl; intros H; try discriminate. exists a. reflexivity.
Qed.

Lemma sep_rule_unit (r : rule S) : is_unit (rbody r) = true -> sep_rule r = r.
Proof.
  intros H. apply is_unit_true in H. destruct H as [a Ha].
  unfold sep_rule. rewrite Ha. reflexivity.
Qed.

Lemma sep_rule_head (r : rule S) : rhead (sep_rule r) = rhead r.
Proof. unfold sep_rule. destruct (rbody r) as [|[a|x] [|s t]]; reflexivity. Qed.

Lemma sep_rule_rw (r : rule S) : rw (sep_rule r) = rw r.
Proof. unfold sep_rule. destruct (rbody r) as [|[a|x] [|s t]]; reflexivity. Qed.

Lemma sep_rule_body_nonunit (r : rule S) :
  is_unit (rbody r) = false -> rbody (sep_rule r) = map (sep_sym pt) (rbody r).
Proof.
  unfold sep_rule. destruct (rbody r) as [|[a|x] [|s t]]; simpl; intros H; try discriminate; reflexivity.
Qed.

Lemma TL_NoDup : NoDup TL.
Proof. unfold TL, terminals_of. apply NoDup_nodup. Qed.

Lemma TL_in (r : rule S) a :
  In r G -> is_unit (rbody r) = false -> In (T a) (rbody r) -> In a TL.
Proof.
  intros Hr Hu Ha. unfold TL, terminals_of. apply nodup_In. apply in_flat_map.
  exists r. split; [exact Hr|].
  assert (Hgoal : In a (flat_map (fun y => match y with T a => [a] | N _ => [] end) (rbody r))).
  { apply in_flat_map. exists (T a). split; [exact Ha|left; reflexivity]. }
  destruct (rbody r) as [|[b|x] [|s t]]; simpl in Hu; try discriminate; exact Hgoal.
Qed.

Lemma K_len : length (map pre_rule TL) = K.
Proof. apply map_length. Qed.

Lemma nth_G'_pre k a : nth_error TL k = Some a -> nth_error G' k = Some (pre_rule a).
Proof.
  intros Hk. rewrite G'_eq. rewrite nth_error_app1.
  - rewrite nth_error_map, Hk. reflexivity.
  - rewrite K_len. unfold K. apply nth_error_Some. rewrite Hk. discriminate.
Qed.

Lemma nth_G'_sep i r : nth_error G i = Some r -> nth_error G' (K + i) = Some (sep_rule r).
Proof.
  intros Hi. rewrite G'_eq. rewrite nth_error_app2 by (rewrite K_len; lia).
  rewrite K_len. replace (K + i - K)%nat with i by lia.
  rewrite nth_error_map, Hi. reflexivity.
Qed.

Lemma nth_G'_cases i r' :
  nth_error G' i = Some r' ->
  (i < K /\ exists a, nth_error TL i = Some a /\ r' = pre_rule a) \/
  (exists j r, i = (K + j)%nat /\ nth_error G j = Some r /\ r' = sep_rule r).
Proof.
  intros Hi. rewrite G'_eq in Hi. destruct (Nat.lt_ge_cases i K) as [Hlt|Hge].
  - left. split; [exact Hlt|]. rewrite nth_error_app1 in Hi by (rewrite K_len; exact Hlt).
    rewrite nth_error_map in Hi. destruct (nth_error TL i) as [a|] eqn:E; [|discriminate].
    exists a. split; [reflexivity|]. simpl in Hi. injection Hi as Hi. symmetry; exact Hi.
  - right. rewrite nth_error_app2 in Hi by (rewrite K_len; exact Hge).
    rewrite K_len in Hi. rewrite nth_error_map in Hi.
    destruct (nth_error G (i - K)) as [r|] eqn:E; [|discriminate].
    exists (i - K)%nat, r. split; [lia|]. split; [exact E|]. simpl in Hi. injection Hi as Hi. symmetry; exact Hi.
Qed.

(* the tree of the preterminal of a *)
Definition wrap (a : nat) : tree S := Node (pos a TL) (pre_rule a) (Fcons (Leaf a) Fnil).

(* phi moves every rule behind the K preterminal rules and, unless the body is a single
   terminal, puts each terminal child under its preterminal *)
Fixpoint phi (t : tree S) : tree S :=
  match t with
  | Leaf a => Leaf a
  | Node i r kids =>
      Node (K + i) (sep_rule r) (if is_unit (rbody r) then kids else phis kids)
  end
with phis (f : forest S) : forest S :=
  match f with
  | Fnil => Fnil
  | Fcons t f' => Fcons (match t with Leaf a => wrap a | Node _ _ _ => phi t end) (phis f')
  end.

Definition phic (t : tree S) : tree S :=
  match t with Leaf a => wrap a | Node _ _ _ => phi t end.

Lemma phis_cons t f : phis (Fcons t f) = Fcons (phic t) (phis f).
Proof. reflexivity. Qed.

(* the default O of [nth] is never reached on a well-formed tree (i < K = length TL) *)
Fixpoint psi (t : tree S) : tree S :=
  match t with
  | Leaf a => Leaf a
  | Node i r' kids =>
      if Nat.ltb i K then Leaf (nth i TL O)
      else Node (i - K) (nth (i - K) G r') (psis kids)
  end
with psis (f : forest S) : forest S :=
  match f with
  | Fnil => Fnil
  | Fcons t f' => Fcons (psi t) (psis f')
  end.

Lemma psis_cons t f : psis (Fcons t f) = Fcons (psi t) (psis f).
Proof. reflexivity. Qed.

(* psi undoes the move of a rule of G behind the preterminal rules *)
Lemma psi_sep i r k : nth_error G i = Some r -> psi (Node (K + i) (sep_rule r) k) = Node i r (psis k).
Proof.
  intros Hn. cbn [psi]. rewrite (proj2 (Nat.ltb_ge (K + i) K) (Nat.le_add_r K i)), Nat.add_comm, Nat.add_sub.
  rewrite (nth_error_nth G i (sep_rule r) Hn). reflexivity.
Qed.

Lemma fwf_unit_inv (G0 : grammar S) a f : fwf S G0 [T a] f -> f = Fcons (Leaf a) Fnil.
Proof.
  intros H. inversion H as [|s body t f' Ht Hf]; subst.
  inversion Ht; subst. inversion Hf; subst. reflexivity.
Qed.

Lemma fwf_unit_intro (G0 : grammar S) a : fwf S G0 [T a] (Fcons (Leaf a) Fnil).
Proof. constructor; [constructor|constructor]. Qed.

Lemma phic_node (G0 : grammar S) X t : twf S G0 (N X) t -> phic t = phi t.
Proof. intros H. inversion H. reflexivity. Qed.

Lemma wrap_wf a : In a TL -> twf S G' (N (pt a)) (wrap a).
Proof.
  intros Hin. unfold wrap.
  change (N (pt a)) with (N (rhead (pre_rule a))).
  constructor.
  - apply nth_G'_pre. apply pos_nth. exact Hin.
  - apply fwf_unit_intro.
Qed.

Lemma wrap_yield a : tyield (wrap a) = [a].
Proof. reflexivity. Qed.

Lemma wrap_height a : theight (wrap a) = 1%nat.
Proof. reflexivity. Qed.

Lemma wrap_weight a : tweight (wrap a) = 1.
Proof. unfold wrap, pre_rule. cbn. unfold rw. cbn. rewrite !smul_1_l. reflexivity. Qed.

Lemma psi_wrap a : In a TL -> psi (wrap a) = Leaf a.
Proof.
  intros Hin. unfold wrap. cbn [psi].
  assert (Hlt : pos a TL < K) by (apply pos_lt; exact Hin).
  apply Nat.ltb_lt in Hlt. rewrite Hlt.
  f_equal. apply nth_error_nth. apply pos_nth. exact Hin.
Qed.

(* phi raises a tree by at most one (the preterminal nodes), psi does not raise it *)
Local Notation hphi := (fun a b : nat => a <= b /\ b <= Datatypes.S a).
Local Notation hpsi := (bounded_by (fun h => h)).

Lemma hphi_ok : height_ok hphi.
Proof. repeat split; intros; lia. Qed.

(* the children of a rule are mapped by phic, to trees for the separated symbols *)
Definition Pphi (s : sym) (t : tree S) : Prop :=
  (forall a, s = T a -> In a TL) -> tok S G' phic psi hphi (sep_sym pt s) t.

Definition Qphi (body : list sym) (f : forest S) : Prop :=
  (forall a, In (T a) body -> In a TL) -> fok S G' phis psis hphi (map (sep_sym pt) body) f.

Lemma phi_mut :
  (forall s t, twf S G s t -> Pphi s t) /\ (forall body f, fwf S G body f -> Qphi body f).
Proof.
  apply twf_fwf_ind.
  - intros a Ha. specialize (Ha a eq_refl).
    exact (conj (wrap_wf a Ha) (conj eq_refl (conj (wrap_weight a) (conj (conj (Nat.le_0_l _) (le_n _)) (psi_wrap a Ha))))).
  - intros i r kids Hn Hk IHk _.
    assert (HrG : In r G) by (apply (nth_error_In G i Hn)).
    destruct (is_unit (rbody r)) eqn:Eu.
    + (* body = [T a]: the rule and the children are unchanged *)
      destruct (is_unit_true _ Eu) as [a Ea].
      assert (Ek : kids = Fcons (Leaf a) Fnil).
      { apply (fwf_unit_inv G). rewrite <- Ea. exact Hk. }
      apply (tok_node S G' phic psi hphi i r kids (K + i) (sep_rule r) kids).
      * cbn [phic phi]. rewrite Eu. reflexivity.
      * apply nth_G'_sep. exact Hn.
      * apply sep_rule_head.
      * rewrite (sep_rule_unit r Eu), Ea, Ek. apply fwf_unit_intro.
      * reflexivity.
      * rewrite sep_rule_rw. reflexivity.
      * split; [apply le_n|apply Nat.le_succ_diag_r].
      * rewrite (psi_sep i r kids Hn), Ek. reflexivity.
    + (* general body *)
      apply (tok_node_moved S G' phic psi phis psis hphi hphi_ok i r kids (K + i) (sep_rule r)).
      * cbn [phic phi]. rewrite Eu. reflexivity.
      * apply nth_G'_sep. exact Hn.
      * apply sep_rule_head.
      * apply sep_rule_rw.
      * rewrite (sep_rule_body_nonunit r Eu). apply IHk. intros a Ha. exact (TL_in r a HrG Eu Ha).
      * intros k'. exact (psi_sep i r k' Hn).
  - intros _. apply (fok_nil S G' phis psis hphi hphi_ok); reflexivity.
  - intros s body t f _ IHt _ IHf HTL.
    apply (fok_cons S G' phic psi phis psis hphi hphi_ok); [reflexivity|reflexivity| |].
    + apply IHt. intros a ->. apply HTL. left. reflexivity.
    + apply IHf. intros a Ha. apply HTL. right. exact Ha.
Qed.

Definition nopt (s : sym) : Prop := forall a, s <> N (pt a).

Lemma nopt_body (r : rule S) : In r G -> Forall nopt (rbody r).
Proof.
  intros Hr. apply Forall_forall. intros s Hs a E. subst s.
  destruct (Hfresh a r Hr) as [_ Hn]. exact (Hn Hs).
Qed.

(* s' is the symbol of G' that stands for the symbol s of G; phic undoes psi *)
Definition Ppsi (s' : sym) (t' : tree S) : Prop :=
  forall s, s' = sep_sym pt s -> nopt s -> tok S G psi phic hpsi s t'.

Definition Qpsi (body' : list sym) (f' : forest S) : Prop :=
  forall body, body' = map (sep_sym pt) body -> Forall nopt body -> fok S G psis phis hpsi body f'.

Lemma psi_mut :
  (forall s' t', twf S G' s' t' -> Ppsi s' t') /\ (forall body' f', fwf S G' body' f' -> Qpsi body' f').
Proof.
  apply twf_fwf_ind.
  - (* leaf: no symbol is separated into a terminal *)
    intros a [b|x] Es; discriminate Es.
  - intros i r' kids Hn Hk IHk s Es Hno.
    destruct (nth_G'_cases i r' Hn) as [[Hlt [a [Ha ->]]]|[j [r [-> [Hr ->]]]]].
    + (* a preterminal rule: collapse *)
      assert (E : s = T a).
      { destruct s as [b|x]; injection Es as Es; [apply Hinj in Es; subst b; reflexivity|].
        destruct (Hno a). rewrite <- Es. reflexivity. }
      subst s.
      assert (Ek : kids = Fcons (Leaf a) Fnil) by (apply (fwf_unit_inv G'); exact Hk).
      subst kids.
      assert (Eps : psi (Node i (pre_rule a) (Fcons (Leaf a) Fnil)) = Leaf a).
      { cbn [psi]. apply Nat.ltb_lt in Hlt. rewrite Hlt. f_equal. apply nth_error_nth. exact Ha. }
      unfold tok. rewrite Eps. cbn [phic]. unfold wrap. rewrite (nth_pos TL i a TL_NoDup Ha).
      exact (conj (twf_leaf S G a) (conj eq_refl (conj (eq_sym (wrap_weight a)) (conj (Nat.le_0_l _) eq_refl)))).
    + (* the image of the rule r at place j of G *)
      assert (HrG : In r G) by (apply (nth_error_In G j Hr)).
      rewrite sep_rule_head in Es.
      assert (E : s = N (rhead r)).
      { destruct s as [b|x]; injection Es as Es; [|rewrite Es; reflexivity].
        destruct (proj1 (Hfresh b r HrG) Es). }
      subst s. rewrite <- (sep_rule_head r).
      assert (Eph : forall k, phic (Node j r k)
                              = Node (K + j) (sep_rule r) (if is_unit (rbody r) then k else phis k)) by reflexivity.
      destruct (is_unit (rbody r)) eqn:Eu.
      * destruct (is_unit_true _ Eu) as [a Ea].
        assert (Ek : kids = Fcons (Leaf a) Fnil).
        { apply (fwf_unit_inv G'). rewrite <- Ea. rewrite (sep_rule_unit r Eu) in Hk. exact Hk. }
        subst kids.
        apply (tok_node S G psi phic hpsi (K + j) (sep_rule r) _ j r (Fcons (Leaf a) Fnil));
          [exact (psi_sep j r _ Hr)|exact Hr|symmetry; apply sep_rule_head|rewrite Ea; apply fwf_unit_intro
          |reflexivity|rewrite sep_rule_rw; reflexivity|apply le_n|apply Eph].
      * apply (tok_node_moved S G psi phic psis phis hpsi no_higher_ok
                              (K + j) (sep_rule r) kids j r);
          [exact (psi_sep j r _ Hr)|exact Hr|symmetry; apply sep_rule_head|symmetry; apply sep_rule_rw| |exact Eph].
        exact (IHk (rbody r) (sep_rule_body_nonunit r Eu) (nopt_body r HrG)).
  - intros body Eb _. symmetry in Eb. apply map_eq_nil in Eb. subst body.
    apply (fok_nil S G psis phis hpsi no_higher_ok); reflexivity.
  - intros s' body' t' f' _ IHt' _ IHf' [|s body] Eb Hno; [discriminate Eb|].
    injection Eb as Es Eb. inversion Hno as [|s1 b1 Hns Hnb]; subst.
    apply (fok_cons S G psi phic psis phis hpsi no_higher_ok);
      [reflexivity|reflexivity|exact (IHt' s eq_refl Hns)|exact (IHf' body eq_refl Hnb)].
Qed.

Lemma phi_all X t : twf S G (N X) t -> tok S G' phi psi (bounded_by Datatypes.S) (N X) t.
Proof.
  intros H. unfold tok. rewrite <- (phic_node G X t H).
  assert (HT : forall a, N X = T a -> In a TL) by (intros a E; discriminate E).
  destruct (proj1 phi_mut (N X) t H HT) as (H1 & H2 & H3 & [_ H4] & H5).
  exact (conj H1 (conj H2 (conj H3 (conj H4 H5)))).
Qed.

(* for the children of a rule whose body is not a single terminal *)
Theorem phis_facts body f :
  fwf S G body f -> (forall a, In (T a) body -> In a TL) ->
  fwf S G' (map (sep_sym pt) body) (phis f) /\ fyield (phis f) = fyield f /\
  fweight (phis f) = fweight f /\
  (fheight f <= fheight (phis f) /\ fheight (phis f) <= Datatypes.S (fheight f)) /\
  psis (phis f) = f.
Proof. intros H. exact (proj2 phi_mut body f H). Qed.

Lemma psi_all X :
  (forall a, X <> pt a) -> forall t', twf S G' (N X) t' -> tok S G psi phi hpsi (N X) t'.
Proof.
  intros HX t' H.
  assert (Hno : nopt (N X)) by (intros a E; injection E as E; exact (HX a E)).
  pose proof (proj1 psi_mut (N X) t' H (N X) eq_refl Hno) as HT.
  unfold tok. rewrite <- (phic_node G X (psi t') (proj1 HT)). exact HT.
Qed.

(* the derivation trees of a preterminal: exactly the wrapped leaf *)
Theorem pre_tree_shape a t' :
  twf S G' (N (pt a)) t' -> In a TL /\ t' = wrap a /\ psi t' = Leaf a.
Proof.
  intros H.
  assert (Hno : nopt (T a)) by (intros b E; discriminate).
  destruct (proj1 psi_mut (N (pt a)) t' H (T a) eq_refl Hno) as (H1 & _ & _ & _ & H5).
  assert (Ep : psi t' = Leaf a) by (inversion H1; reflexivity).
  rewrite Ep in H5. cbn [phic] in H5.
  split; [|split; [symmetry; exact H5|exact Ep]].
  subst t'. unfold wrap in H. inversion H as [|i r kids Hn Hk Eh]; subst.
  destruct (nth_G'_cases _ _ Hn) as [[_ [b [Hb Er]]]|[j [r [_ [Hr Er]]]]].
  - unfold pre_rule in Er. injection Er as Er _. apply Hinj in Er. subst b.
    apply (nth_error_In TL _ Hb).
  - exfalso. assert (HrG : In r G) by (apply (nth_error_In G _ Hr)).
    destruct (Hfresh a r HrG) as [Hh _]. apply Hh.
    rewrite <- (sep_rule_head r), <- Er. reflexivity.
Qed.

(* every tree of G' of height <= h is the image of a tree of G of height <= h; in the other
   direction the bound is the one of psi *)
Theorem trees_phi_onto h X t' :
  (forall a, X <> pt a) -> In t' (trees G' h X) -> exists t, In t (trees G h X) /\ phi t = t'.
Proof.
  intros HX. exact (tmap_onto S G' G psi phi (fun h => h) X (psi_all X HX) bound_id_mono h t').
Qed.

Theorem trees_psi_onto h X t :
  In t (trees G h X) -> exists t', In t' (trees G' (Datatypes.S h) X) /\ psi t' = t.
Proof. exact (tmap_onto S G G' phi psi Datatypes.S X (phi_all X) le_n_S h t). Qed.

(* the weighted form: the sum W G h X xs is a sum over a duplicate-free sub-list of the
   trees of G' of height <= h+1, with the same weights and yields *)
Theorem W_sub_sum h X xs :
  NoDup (map phi (trees G h X)) /\
  incl (map phi (trees G h X)) (trees G' (Datatypes.S h) X) /\
  W G h X xs = bsum (filter (yields xs) (map phi (trees G h X))) tweight.
Proof. exact (tmap_sub_sum S G G' phi psi Datatypes.S X (phi_all X) le_n_S h xs). Qed.

Theorem W'_sub_sum h X xs :
  (forall a, X <> pt a) ->
  NoDup (map psi (trees G' h X)) /\
  incl (map psi (trees G' h X)) (trees G h X) /\
  W G' h X xs = bsum (filter (yields xs) (map psi (trees G' h X))) tweight.
Proof.
  intros HX. exact (tmap_sub_sum S G' G psi phi (fun h => h) X (psi_all X HX) bound_id_mono h xs).
Qed.

End SepTerm.

Print Assumptions phis_facts.
Print Assumptions pre_tree_shape.
Print Assumptions trees_phi_onto.
Print Assumptions trees_psi_onto.
Print Assumptions W_sub_sum.
Print Assumptions W'_sub_sum.
