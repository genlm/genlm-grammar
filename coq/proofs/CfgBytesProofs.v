(* CFG.to_bytes: every rule keeps its weight and head; in the body every terminal a is replaced
   by the sequence of the bytes of its code word enc a, nonterminals stay (UTF-8 in the code;
   here enc is any map with non-empty code words).
   Theorem cfg_to_bytes_W: the byte-level grammar gives every byte string bs the total weight
   of the symbol strings whose encoding is bs (each decoding counted once; zero when bs is not
   an encoding), at every height bound h and for every nonterminal.  The proof reads the sums
   over decodings as the substitution sums SG of SubstProofs (dec_SG) and takes the three body
   lemmas from there. *)
From Coq Require Import List Lia NArith.
From GV.lib Require Import Semiring BigSum.
From GV.model Require Import Cfg Bytes.
From GV.gen Require Import Gen_CfgBytes.
From GV.proofs Require Import CkyProofs FoldProofs ProductProofs SubstProofs ConvertProofs.
Import ListNotations.
Local Open Scope sr_scope.

Section CfgBytes.
Variable S : SR.
Add Ring SRing : (sth S).
Variable enc : nat -> list nat.
Variable V : list nat.

Definition bytes_body (body : list sym) : list sym :=
  flat_map (fun y => match y with T a => map T (enc a) | N X => [N X] end) body.
Definition cfg_to_bytes (G : grammar S) : grammar S :=
  map (fun r => (rw r, rhead r, bytes_body (rbody r))) G.

(* the fuel of decodings is irrelevant once it covers the length *)

Lemma decodings_nil f : decodings enc V f [] = [[]].
Proof. destruct f; reflexivity. Qed.

Lemma decodings_fuel : forall n bs f1 f2, length bs <= n -> length bs <= f1 -> length bs <= f2 ->
  decodings enc V f1 bs = decodings enc V f2 bs.
Proof.
  induction n as [|n IH]; intros bs f1 f2 Hn H1 H2.
  - destruct bs; [rewrite !decodings_nil; reflexivity|cbn [length] in Hn; lia].
  - destruct bs as [|b bs']; [rewrite !decodings_nil; reflexivity|].
    destruct f1 as [|f1]; [cbn [length] in H1; lia|].
    destruct f2 as [|f2]; [cbn [length] in H2; lia|].
    rewrite !decodings_cons. apply flat_map_ext. intros a.
    destruct (enc a) as [|c0 c] eqn:Ec; [reflexivity|].
    destruct (strip (c0 :: c) (b :: bs')) as [rest|] eqn:Es; [|reflexivity].
    pose proof (strip_length _ _ _ Es) as Hl. cbn [length] in *.
    f_equal. apply IH; lia.
Qed.

(* decodings with the canonical fuel *)
Definition dec (bs : list nat) : list (list nat) := decodings enc V (length bs) bs.

Lemma decodings_dec bs fuel : length bs <= fuel -> decodings enc V fuel bs = dec bs.
Proof. intros H. unfold dec. apply (decodings_fuel (length bs)); lia. Qed.

Lemma dec_nil : dec [] = [[]].
Proof. reflexivity. Qed.

Hypothesis V_nodup : NoDup V.
Hypothesis enc_nonempty : forall a, In a V -> enc a <> [].

Lemma strip_nil_nonempty c : c <> [] -> strip c [] = None.
Proof. destruct c; [congruence|reflexivity]. Qed.

(* a code word consumes at least one byte *)
Lemma strip_enc_shorter a bs rest :
  In a V -> strip (enc a) bs = Some rest -> length rest < length bs.
Proof.
  intros Ha Es. pose proof (strip_length _ _ _ Es) as Hl. pose proof (enc_nonempty a Ha) as Hne.
  destruct (enc a); [congruence|cbn [length] in Hl; lia].
Qed.

Lemma dec_cons b bs' :
  dec (b :: bs') = flat_map (fun a => match strip (enc a) (b :: bs') with
                                      | Some rest => map (cons a) (dec rest)
                                      | None => []
                                      end) V.
Proof.
  unfold dec at 1. cbn [length]. rewrite decodings_cons.
  rewrite !flat_map_concat_map. f_equal. apply map_ext_in; intros a Ha.
  rewrite (match_nonnil (enc a) _ _ (enc_nonempty a Ha)).
  destruct (strip (enc a) (b :: bs')) as [rest|] eqn:Es; [|reflexivity].
  pose proof (strip_enc_shorter a _ rest Ha Es) as Hl. cbn [length] in Hl.
  rewrite (decodings_dec rest) by lia. reflexivity.
Qed.

Lemma bsum_dec_cons b bs' (F : list nat -> S) :
  bsum (dec (b :: bs')) F
  = bsum V (fun a => match strip (enc a) (b :: bs') with
                     | Some rest => bsum (dec rest) (fun xs => F (a :: xs))
                     | None => 0
                     end).
Proof.
  rewrite dec_cons, bsum_flat_map. apply bsum_ext. intros a _.
  destruct (strip (enc a) (b :: bs')); [apply bsum_map|reflexivity].
Qed.

(* a body that starts with the terminals of a code word *)
Lemma Wb_strip (f : nat -> list nat -> S) (c : list nat) (g : list sym) : forall bs,
  Wb f (map T c ++ g) bs = match strip c bs with Some rest => Wb f g rest | None => 0 end.
Proof.
  induction c as [|x c IH]; intros bs; [reflexivity|].
  cbn [map app Wb strip]. destruct bs as [|b t]; [reflexivity|].
  destruct (Nat.eqb x b); [apply IH|reflexivity].
Qed.

(* cutting bs so that the first part starts with c is cutting what is left of bs after c *)
Lemma splits_strip (c : list nat) : forall (bs : list nat) (K : list nat -> list nat -> S),
  bsum (splits bs) (fun p => match strip c (fst p) with Some r1 => K r1 (snd p) | None => 0 end)
  = match strip c bs with
    | Some rest => bsum (splits rest) (fun p => K (fst p) (snd p))
    | None => 0
    end.
Proof.
  induction c as [|x c IH]; intros bs K; [reflexivity|].
  destruct bs as [|b t].
  - cbn [splits strip]. rewrite bsum_cons, bsum_nil. cbn [fst strip]. ring.
  - rewrite (bsum_splits_cons S b t
               (fun u v => match strip (x :: c) u with Some r1 => K r1 v | None => 0 end)).
    cbn [strip]. destruct (Nat.eqb x b).
    + rewrite IH. ring.
    + rewrite bsum_const_zero. ring.
Qed.

(* the byte-level grammar substitutes, for the token a, the language of the one
   string enc a: the sums over decodings are the sums SG of SubstProofs for it *)

Definition Lenc (a : nat) (u : list nat) : S :=
  match strip (enc a) u with Some [] => 1 | _ => 0 end.

Lemma Lenc_nil a : In a V -> Lenc a [] = 0.
Proof. intros Ha. unfold Lenc. rewrite (strip_nil_nonempty _ (enc_nonempty a Ha)). reflexivity. Qed.

Lemma splits_Lenc a (K : list nat -> S) bs :
  bsum (splits bs) (fun p => Lenc a (fst p) * K (snd p))
  = match strip (enc a) bs with Some rest => K rest | None => 0 end.
Proof.
  rewrite (bsum_ext S (splits bs) _
             (fun p => match strip (enc a) (fst p) with
                       | Some r1 => nilw S r1 * K (snd p) | None => 0 end)).
  - rewrite (splits_strip (enc a) bs (fun r1 v => nilw S r1 * K v)).
    destruct (strip (enc a) bs); [apply splits_nilw_l|reflexivity].
  - intros p _. unfold Lenc. destruct (strip (enc a) (fst p)) as [[|]|]; cbn [nilw]; ring.
Qed.

Lemma dec_SG : forall n bs (g : list nat -> S), length bs <= n ->
  SG S V Lenc n g bs = bsum (dec bs) g.
Proof.
  induction n as [|n IH]; intros bs g Hn; unfold SG.
  - destruct bs; [|cbn [length] in Hn; lia].
    change (words_le V 0) with [@nil nat]. rewrite dec_nil, !bsum_cons, !bsum_nil. cbn [seg]. ring.
  - rewrite bsum_words_le_S.
    assert (Hseg : forall a w, seg S Lenc (a :: w) bs
                   = match strip (enc a) bs with Some rest => seg S Lenc w rest | None => 0 end)
      by (intros a w; apply splits_Lenc).
    destruct bs as [|b bs'].
    + rewrite dec_nil, bsum_cons, bsum_nil. rewrite (bsum_zero S V); [cbn [seg]; ring|].
      intros a Ha. apply bsum_zero; intros w _.
      rewrite Hseg, (strip_nil_nonempty _ (enc_nonempty a Ha)). apply smul_0_r.
    + rewrite bsum_dec_cons. change (seg S Lenc [] (b :: bs')) with (@s0 S).
      rewrite smul_0_r, sadd_0_l. apply bsum_ext; intros a Ha.
      destruct (strip (enc a) (b :: bs')) as [rest|] eqn:Es.
      * pose proof (strip_enc_shorter a _ rest Ha Es) as Hl. cbn [length] in Hl, Hn.
        rewrite <- (IH rest (fun w => g (a :: w))) by lia.
        apply bsum_ext; intros w _. rewrite Hseg, Es. reflexivity.
      * apply bsum_zero; intros w _. rewrite Hseg, Es. apply smul_0_r.
Qed.

Lemma Wb_bytes_body (f : nat -> list nat -> S) : forall body,
  (forall a, In (T a) body -> In a V) ->
  forall bs,
  Wb (fun Y b => bsum (dec b) (fun u => f Y u)) (bytes_body body) bs
  = bsum (dec bs) (fun xs => Wb f body xs).
Proof.
  induction body as [|[a|Y] body IH]; intros HV bs;
    rewrite <- (dec_SG (length bs) bs _ (le_n _)).
  - symmetry. apply SG_nilw.
  - assert (Ha : In a V) by (apply HV; left; reflexivity).
    change (bytes_body (T a :: body)) with (map T (enc a) ++ bytes_body body).
    etransitivity;
      [|symmetry; exact (SG_tok S V Lenc V_nodup Lenc_nil (length bs) a (Wb f body) bs Ha (le_n _))].
    rewrite Wb_strip, splits_Lenc.
    destruct (strip (enc a) bs) as [rest|] eqn:Es; [|reflexivity].
    pose proof (strip_enc_shorter a _ rest Ha Es) as Hl.
    rewrite IH by (intros; apply HV; right; assumption). symmetry. apply dec_SG. lia.
  - change (bytes_body (N Y :: body)) with (N Y :: bytes_body body).
    etransitivity;
      [|symmetry; exact (SG_conv S V Lenc Lenc_nil (length bs) (f Y) (Wb f body) bs (le_n _))].
    cbn [Wb]. apply bsum_ext; intros p Hp. pose proof (splits_length bs p Hp) as Hl.
    rewrite IH by (intros; apply HV; right; assumption).
    rewrite !(dec_SG (length bs)) by lia. reflexivity.
Qed.

Lemma cfg_to_bytes_W_dec (G : grammar S) :
  (forall r a, In r G -> In (T a) (rbody r) -> In a V) ->
  forall h X bs, W (cfg_to_bytes G) h X bs = bsum (dec bs) (fun xs => W G h X xs).
Proof.
  intros HG. induction h as [|h IH]; intros X bs.
  - cbn [W]. symmetry. apply bsum_const_zero.
  - cbn [W]. unfold cfg_to_bytes at 1. rewrite bsum_map. rewrite bsum_swap.
    apply bsum_ext. intros r Hr.
    change (rhead (rw r, rhead r, bytes_body (rbody r))) with (rhead r).
    change (rw (rw r, rhead r, bytes_body (rbody r))) with (rw r).
    change (rbody (rw r, rhead r, bytes_body (rbody r))) with (bytes_body (rbody r)).
    destruct (Nat.eqb (rhead r) X); [|symmetry; apply bsum_const_zero].
    rewrite bsum_mul_l. f_equal.
    rewrite (Wb_ext S (W (cfg_to_bytes G) h) (fun Y b => bsum (dec b) (fun u => W G h Y u)) IH).
    apply Wb_bytes_body. intros a Ha. apply (HG r a Hr Ha).
Qed.

Theorem cfg_to_bytes_W : forall (G : grammar S),
  (forall r a, In r G -> In (T a) (rbody r) -> In a V) ->
  forall h X bs fuel, length bs <= fuel ->
  W (cfg_to_bytes G) h X bs = bsum (decodings enc V fuel bs) (fun xs => W G h X xs).
Proof.
  intros G HG h X bs fuel Hf. rewrite (decodings_dec bs fuel Hf). apply cfg_to_bytes_W_dec. exact HG.
Qed.

(* a byte string that is not an encoding has weight zero *)
Corollary cfg_to_bytes_W_undecodable : forall (G : grammar S),
  (forall r a, In r G -> In (T a) (rbody r) -> In a V) ->
  forall h X bs fuel, length bs <= fuel ->
  decodings enc V fuel bs = [] -> W (cfg_to_bytes G) h X bs = 0.
Proof.
  intros G HG h X bs fuel Hf E. rewrite (cfg_to_bytes_W G HG h X bs fuel Hf), E. reflexivity.
Qed.

End CfgBytes.

Print Assumptions decodings_fuel.
Print Assumptions Wb_strip.
Print Assumptions splits_strip.
Print Assumptions Wb_bytes_body.
Print Assumptions cfg_to_bytes_W.
Print Assumptions cfg_to_bytes_W_undecodable.

(* CFG.to_bytes as regenerated from cfg.py (coq/gen/Gen_CfgBytes.v) is the model used above *)
Lemma gen_cfg_to_bytes_model (S : SR) (enc : nat -> list nat) (G : grammar S) :
  gen_cfg_to_bytes S enc G = cfg_to_bytes S enc G.
Proof. reflexivity. Qed.
Print Assumptions gen_cfg_to_bytes_model.

(* example over N: enc 0 = [10], enc 1 = [11;12] *)

Local Close Scope sr_scope.

Definition ex_enc (a : nat) : list nat := match a with O => [10] | _ => [11; 12] end.
Definition ex_G : grammar NSR := [ (2%N, 0, [T 1; N 1]); (3%N, 1, [T 0]); (5%N, 1, []) ].

Example ex_bytes_W : W (cfg_to_bytes NSR ex_enc ex_G) 3 0 [11; 12; 10] = 6%N.
Proof. vm_compute. reflexivity. Qed.
Example ex_sym_W : W ex_G 3 0 [1; 0] = 6%N.
Proof. vm_compute. reflexivity. Qed.
Example ex_decodings : decodings ex_enc [0; 1] 3 [11; 12; 10] = [[1; 0]].
Proof. vm_compute. reflexivity. Qed.
Example ex_truncated : W (cfg_to_bytes NSR ex_enc ex_G) 3 0 [11] = 0%N.
Proof. vm_compute. reflexivity. Qed.
Example ex_truncated_dec : decodings ex_enc [0; 1] 1 [11] = [].
Proof. vm_compute. reflexivity. Qed.
