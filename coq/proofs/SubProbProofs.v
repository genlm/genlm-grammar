(* Sub-probability: a weighted automaton over the rationals with non-negative weights whose
   every state has outgoing-plus-final mass at most one, and whose initial mass is at most one,
   gives total weight at most one to the set of all strings of bounded length (for every bound).
   Instance: the automaton built from a regex DFA (interegular_to_wfsa post-processing). *)
From Coq Require Import List QArith Qcanon.
From GV.lib Require Import Semiring BigSum.
From GV.model Require Import Regex Wfsa.
From GV.proofs Require Import RegexLangProofs ProductProofs.
Import ListNotations.
Local Open Scope Qc_scope.

Notation qsum := (bsum (S:=QcSR)) (only parsing).

(* a sum over a duplicate-free list in which at most one index matches the label *)
Lemma bsum_at_most_one : forall (V : list nat) (l : option nat) (T : Qc),
  NoDup V -> 0 <= T -> qsum V (fun c => if lbl_eqb l c then T else 0) <= T.
Proof.
  intros V l T Hnd HT. destruct l as [b|]; cbn [lbl_eqb].
  - apply Qcle_trans with (if existsb (fun a => Nat.eqb a b) V then T else 0).
    + apply Qc_eq_le. exact (bsum_delta QcSR Nat.eqb Nat.eqb_eq V b (fun _ => T) Hnd).
    + destruct (existsb _ V); [apply Qcle_refl|exact HT].
  - apply Qcle_trans with 0; [|exact HT].
    apply Qc_eq_le. apply (bsum_zero QcSR). reflexivity.
Qed.

(* outgoing arc weights plus final weight of state q (the body of Det.out_mass, over QcSR) *)
Definition state_mass (m : wfsa QcSR) (q : nat) : Qc :=
  wget (wfinal m) q + qsum (warcs m) (fun ar => if Nat.eqb (asrc ar) q then awt ar else 0).

Definition nonneg_wfsa (m : wfsa QcSR) : Prop :=
  (forall e, In e (winit m) -> 0 <= snd e) /\
  (forall e, In e (wfinal m) -> 0 <= snd e) /\
  (forall ar, In ar (warcs m) -> 0 <= awt ar).

(* the contribution of one arc, summed over all first symbols and all continuations *)
Lemma arc_term_bound : forall (V : list nat) (W : list (list nat)) (b : bool) (l : option nat)
    (a : Qc) (p : list nat -> Qc),
  NoDup V -> 0 <= a -> (forall w, 0 <= p w) -> qsum W p <= 1 ->
  qsum V (fun c => qsum W (fun w => if b && lbl_eqb l c then a * p w else 0)) <= (if b then a else 0).
Proof.
  intros V W b l a p Hnd Ha Hp Hle. destruct b; cbn [andb].
  - assert (E : qsum V (fun c => qsum W (fun w => if lbl_eqb l c then a * p w else 0))
              = qsum V (fun c => if lbl_eqb l c then a * qsum W p else 0)).
    { apply (bsum_ext QcSR). intros c _. destruct (lbl_eqb l c).
      - exact (bsum_mul_l QcSR W p a).
      - apply (bsum_zero QcSR). reflexivity. }
    rewrite E. clear E.
    assert (HT : 0 <= qsum W p) by (apply (bsum_Qc_nonneg W); intros w _; apply Hp).
    apply Qcle_trans with (a * qsum W p).
    + apply bsum_at_most_one; [exact Hnd|apply Qc_mul_nonneg; assumption].
    + apply Qc_mul_le_self; assumption.
  - apply Qc_eq_le. apply (bsum_zero QcSR). intros c _. apply (bsum_zero QcSR). reflexivity.
Qed.

Lemma step_bound : forall (V : list nat) (m : wfsa QcSR) (n q : nat),
  NoDup V -> nonneg_wfsa m ->
  (forall q', qsum (words_le V n) (fun w => pw m q' w) <= 1) ->
  qsum V (fun c => qsum (words_le V n) (fun w => pw m q (c :: w)))
  <= qsum (warcs m) (fun ar => if Nat.eqb (asrc ar) q then awt ar else 0).
Proof.
  intros V m n q Hnd Hnn IH.
  set (W := words_le V n) in *.
  set (term := fun (ar : arc QcSR) (c : nat) (w : list nat) =>
                 if Nat.eqb (asrc ar) q && lbl_eqb (albl ar) c then awt ar * pw m (adst ar) w else 0).
  assert (E : qsum V (fun c => qsum W (fun w => pw m q (c :: w)))
            = qsum (warcs m) (fun ar => qsum V (fun c => qsum W (fun w => term ar c w)))).
  { etransitivity.
    - apply (bsum_ext QcSR). intros c _. cbn [pw].
      exact (bsum_swap QcSR W (warcs m) (fun w ar => term ar c w)).
    - exact (bsum_swap QcSR V (warcs m) (fun c ar => qsum W (fun w => term ar c w))). }
  rewrite E. clear E.
  apply bsum_Qc_le. intros ar Har. unfold term.
  apply (arc_term_bound V W (Nat.eqb (asrc ar) q) (albl ar) (awt ar) (fun w => pw m (adst ar) w)).
  - exact Hnd.
  - destruct Hnn as [_ [_ Ha]]. apply Ha, Har.
  - intros w. destruct Hnn as [_ [Hf Ha]]. apply pw_nonneg; assumption.
  - apply IH.
Qed.

Theorem substochastic_total : forall (V : list nat) (m : wfsa QcSR), NoDup V -> nonneg_wfsa m ->
  (forall q, state_mass m q <= 1) ->
  forall n q, qsum (words_le V n) (fun xs => pw m q xs) <= 1.
Proof.
  intros V m Hnd Hnn Hsm. induction n as [|n IH]; intros q.
  - change (wget (wfinal m) q + 0 <= 1). rewrite Qcplus_0_r.
    apply Qcle_trans with (state_mass m q); [|apply Hsm].
    unfold state_mass. apply Qc_le_add_nonneg.
    apply (bsum_Qc_nonneg (warcs m)). intros ar Har. cbv beta.
    destruct (Nat.eqb (asrc ar) q); [|apply Qcle_refl].
    destruct Hnn as [_ [_ Ha]]. apply Ha, Har.
  - apply Qcle_trans with (state_mass m q); [|apply Hsm].
    apply Qcle_trans with
      (pw m q [] + qsum V (fun c => qsum (words_le V n) (fun w => pw m q (c :: w)))).
    + apply Qc_eq_le. exact (bsum_words_le_S QcSR V n (fun xs => pw m q xs)).
    + unfold state_mass. apply Qcplus_le_compat; [apply Qcle_refl|].
      apply step_bound; assumption.
Qed.

Theorem substochastic_language : forall (V : list nat) (m : wfsa QcSR), NoDup V -> nonneg_wfsa m ->
  (forall q, state_mass m q <= 1) -> qsum (winit m) (fun e => snd e) <= 1 ->
  forall n, qsum (words_le V n) (fun xs => pathsum m xs) <= 1.
Proof.
  intros V m Hnd Hnn Hsm Hinit n.
  set (W := words_le V n).
  assert (E : qsum W (fun xs => pathsum m xs)
            = qsum (winit m) (fun e => snd e * qsum W (fun xs => pw m (fst e) xs))).
  { unfold pathsum. etransitivity.
    - exact (bsum_swap QcSR W (winit m) (fun xs e => snd e * pw m (fst e) xs)).
    - apply (bsum_ext QcSR). intros e _.
      exact (bsum_mul_l QcSR W (fun xs => pw m (fst e) xs) (snd e)). }
  rewrite E. clear E.
  apply Qcle_trans with (qsum (winit m) (fun e => snd e)); [|exact Hinit].
  apply bsum_Qc_le. intros e He.
  apply Qc_mul_le_self.
  - destruct Hnn as [Hi _]. apply Hi, He.
  - apply substochastic_total; assumption.
Qed.

Ltac qc_norm :=
  change (car QcSR) with Qc; change (@s0 QcSR) with 0%Qc; change (@s1 QcSR) with 1%Qc;
  change (@sadd QcSR) with Qcplus; change (@smul QcSR) with Qcmult.

Lemma re_nonneg : forall charset D, nonneg_wfsa (re_wfsa charset D).
Proof.
  intros charset D. destruct (re_positive charset D) as [Hf Ha]. split; [|split].
  - intros e [<-|[]]. exact Qc_0_le_1.
  - intros e He. apply Qclt_le_weak, Hf, He.
  - intros ar Har. apply Qclt_le_weak, Ha, Har.
Qed.

(* a sum over an association list with distinct keys in which only key q contributes *)
Lemma bsum_fst_at_most_one : forall {B} (l : list (nat * B)) (q : nat) (h : nat * B -> Qc),
  NoDup (map fst l) -> (forall e, In e l -> 0 <= h e /\ h e <= 1) ->
  qsum l (fun e => if Nat.eqb (fst e) q then h e else 0) <= 1.
Proof.
  intros B l q h. induction l as [|a t IH]; intros Hnd Hh.
  - exact Qc_0_le_1.
  - rewrite qsum_cons. cbn [map] in Hnd. inversion Hnd as [|x xs Hnin Hnd']; subst.
    destruct (Nat.eqb_spec (fst a) q) as [Eq|Ne].
    + assert (Z : qsum t (fun e => if Nat.eqb (fst e) q then h e else 0) = 0).
      { apply (bsum_zero QcSR). intros e He. cbv beta.
        destruct (Nat.eqb_spec (fst e) q) as [E2|]; [|reflexivity].
        exfalso. apply Hnin. rewrite Eq, <- E2. apply in_map. exact He. }
      rewrite Z, Qcplus_0_r. apply Hh. left. reflexivity.
    + rewrite Qcplus_0_l. apply IH; [exact Hnd'|]. intros e He. apply Hh. right. exact He.
Qed.

Lemma re_mass_range : forall charset D e, 0 <= re_mass charset D e /\ re_mass charset D e <= 1.
Proof.
  intros charset D e.
  destruct (Nat.eq_dec (fanout charset D (fst e) (snd e)) 0) as [E|E].
  - unfold re_mass. cbv zeta. rewrite E. cbn [Nat.eqb].
    split; [apply Qcle_refl|exact Qc_0_le_1].
  - rewrite (regex_locally_normalised _ _ _ E). split; [exact Qc_0_le_1|apply Qcle_refl].
Qed.

(* every entry of the DFA's map contributes its final weight and its arcs to its own state only,
   and these add up to re_mass *)
Lemma re_state_mass : forall charset D, NoDup (map fst (d_map D)) ->
  forall q, state_mass (re_wfsa charset D) q <= 1.
Proof.
  intros charset D Hnd q. unfold state_mass. cbn [re_wfsa wfinal warcs]. unfold wget, re_finals, re_arcs.
  rewrite (bsum_map QcSR), !(bsum_flat_map QcSR).
  apply Qcle_trans with (qsum (d_map D) (fun e => if Nat.eqb (fst e) q then re_mass charset D e else 0)).
  - apply Qc_eq_le. etransitivity; [symmetry; exact (bsum_add QcSR (d_map D) _ _)|].
    apply (bsum_ext QcSR). intros [i outs] _. unfold re_mass. cbv zeta. cbn [fst snd].
    destruct (Nat.eqb (fanout charset D i outs) 0).
    + change (0 + 0 = (if Nat.eqb i q then 0 else 0)). destruct (Nat.eqb i q); apply Qcplus_0_l.
    + rewrite (bsum_map QcSR). unfold asrc, awt. cbn [fst snd].
      destruct (memn i (d_finals D)).
      * rewrite qsum_cons, bsum_nil. cbn [fst snd]. rewrite (Nat.eqb_sym q i). qc_norm.
        destruct (Nat.eqb i q); [rewrite Qcplus_0_r; apply Qcplus_comm|rewrite qsum_zero, !Qcplus_0_l; reflexivity].
      * rewrite bsum_nil. qc_norm. destruct (Nat.eqb i q); [apply Qcplus_comm|rewrite qsum_zero; apply Qcplus_0_l].
  - apply bsum_fst_at_most_one; [exact Hnd|]. intros e _. apply re_mass_range.
Qed.

(* The DFA's transition map has one entry per state, as a Python dict does.  Here this is
   [NoDup (map fst (d_map D))] (distinct keys), because re_state_mass adds up the entries and two
   entries for one state would both count.  RegexLiveProofs asks only that entries with equal keys
   be equal, which distinct keys imply and which a list repeating an entry also satisfies. *)
Theorem re_subprobability : forall (V charset : list nat) (D : dfa), NoDup V ->
  NoDup (map fst (d_map D)) ->
  forall n, qsum (words_le V n) (fun xs => pathsum (re_wfsa charset D) xs) <= 1.
Proof.
  intros V charset D HV Hnd n.
  apply substochastic_language.
  - exact HV.
  - apply re_nonneg.
  - apply re_state_mass. exact Hnd.
  - change (1 + 0 <= 1). rewrite Qcplus_0_r. apply Qcle_refl.
Qed.

Example exD_total_3 :
  qsum (words_le [7; 8]%nat 3) (fun xs => pathsum (re_wfsa [7; 8]%nat exD) xs) = Q2Qc (7 # 8).
Proof. vm_compute. reflexivity. Qed.

(* the hypotheses of re_subprobability hold for it *)
Example exD_subprobability : forall n,
  qsum (words_le [7; 8]%nat n) (fun xs => pathsum (re_wfsa [7; 8]%nat exD) xs) <= 1.
Proof.
  apply re_subprobability; repeat constructor; cbn; intuition discriminate.
Qed.

Print Assumptions substochastic_total.
Print Assumptions substochastic_language.
Print Assumptions re_subprobability.
Print Assumptions exD_total_3.
Print Assumptions exD_subprobability.
