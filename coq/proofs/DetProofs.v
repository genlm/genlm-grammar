(* Weight pushing (WFSA.push) and the weighted subset construction (determinize._powerarcs):
   pushing makes every kept state stochastic and preserves every string weight; the
   accumulated weight times the residual vector of the subset construction is the forward
   vector, hence the determinised machine assigns every string its original weight.
   [push_with V m] is WFSA.push with V = self.backward: states and targets with V = 0 are
   dropped, as there. *)
From Coq Require Import List Arith Bool.
From GV.lib Require Import Semiring BigSum.
From GV.model Require Import Wfsa Det.
From GV.proofs Require Import WfsaProofs.
Import ListNotations.
Local Open Scope sr_scope.

Section DetProofs.
Variable F : FR.
Add Field DField : (fth F).

Lemma finv_l (x : F) : x <> 0 -> finv F x * x = 1.
Proof. intros Hx. exact (Field_theory.Finv_l (fth F) x Hx). Qed.

Lemma finv_cancel (x y : F) : x <> 0 -> x * (finv F x * y) = y.
Proof.
  intros Hx. transitivity ((finv F x * x) * y); [ring|]. rewrite (finv_l x Hx). ring.
Qed.

Lemma bsum_one {A} (x : A) (f : A -> F) : bsum [x] f = f x.
Proof. rewrite bsum_cons, bsum_nil. ring. Qed.

Lemma bsum_flat_map_unless {A B} (c : A -> bool) (g : A -> B) (l : list A) (f : B -> F) :
  bsum (flat_map (fun e => if c e then [] else [g e]) l) f = bsum l (fun e => if c e then 0 else f (g e)).
Proof.
  rewrite bsum_flat_map. apply bsum_ext; intros e _. destruct (c e); [apply bsum_nil|apply bsum_one].
Qed.

Lemma bsum_guard_mul_l {A} (p : A -> bool) (c : F) (f : A -> F) (l : list A) :
  bsum l (fun a => if p a then c * f a else 0) = c * bsum l (fun a => if p a then f a else 0).
Proof. rewrite <- bsum_mul_l. apply bsum_ext; intros a _. destruct (p a); ring. Qed.

Lemma bsum_push_arcs (V : nat -> F) (m : wfsa F) (f : arc F -> F) :
  bsum (warcs (push_with V m)) f =
  bsum (warcs m) (fun ar => if seqb (V (asrc ar)) 0 then 0
     else f (asrc ar, albl ar, adst ar, finv F (V (asrc ar)) * awt ar * V (adst ar))).
Proof. apply bsum_flat_map_unless. Qed.

Lemma bsum_push_final (V : nat -> F) (m : wfsa F) (f : nat * F -> F) :
  bsum (wfinal (push_with V m)) f =
  bsum (wfinal m) (fun e => if seqb (V (fst e)) 0 then 0
     else f (fst e, finv F (V (fst e)) * snd e)).
Proof. apply bsum_flat_map_unless. Qed.

Lemma bsum_push_init (V : nat -> F) (m : wfsa F) (f : nat * F -> F) :
  bsum (winit (push_with V m)) f =
  bsum (winit m) (fun e => if seqb (V (fst e)) 0 then 0
     else f (fst e, snd e * V (fst e))).
Proof. apply bsum_flat_map_unless. Qed.

Lemma wget_push_final (V : nat -> F) (m : wfsa F) (i : nat) :
  V i <> 0 -> wget (wfinal (push_with V m)) i = finv F (V i) * wget (wfinal m) i.
Proof.
  intros Hi. unfold wget. rewrite bsum_push_final, <- bsum_guard_mul_l.
  apply bsum_ext; intros e _. cbn [fst snd].
  destruct (Nat.eqb i (fst e)) eqn:E; [|destruct (seqb (V (fst e)) 0); reflexivity].
  apply Nat.eqb_eq in E. subst i. destruct (seqb_reflect F (V (fst e)) 0); [contradiction|reflexivity].
Qed.

Theorem push_stochastic : forall (V : nat -> F) (m : wfsa F) (i : nat),
  backward_eq V m -> V i <> 0 -> out_mass (push_with V m) i = 1.
Proof.
  intros V m i HB Hi. unfold out_mass.
  transitivity (finv F (V i) * wget (wfinal m) i + finv F (V i) *
     bsum (warcs m) (fun ar => if Nat.eqb (asrc ar) i then awt ar * V (adst ar) else 0)).
  2:{ rewrite <- (finv_l (V i) Hi). set (c := finv F (V i)). rewrite (HB i). ring. }
  rewrite (wget_push_final V m i Hi), bsum_push_arcs, <- bsum_guard_mul_l.
  apply f_equal, bsum_ext; intros ar _. cbn [asrc awt fst snd].
  destruct (Nat.eqb (asrc ar) i) eqn:E; [|destruct (seqb (V (asrc ar)) 0); reflexivity].
  apply Nat.eqb_eq in E. subst i. destruct (seqb_reflect F (V (asrc ar)) 0); [contradiction|ring].
Qed.

(* stated for every state: where V vanishes both sides are 0, so the induction needs no case on the target *)
Lemma push_pw_scaled (V : nat -> F) (m : wfsa F) : backward_eq V m ->
  (forall q, V q = 0 -> forall xs, pw m q xs = 0) ->
  forall xs q, V q * pw (push_with V m) q xs = pw m q xs.
Proof.
  intros HB HZ. induction xs as [|a t IH]; intros q.
  all: destruct (seqb_reflect F (V q) 0) as [E|Hq]; [rewrite E, (HZ q E); ring|].
  all: rewrite <- (finv_cancel (V q) (pw m q _) Hq); apply f_equal; cbn [pw].
  - apply wget_push_final, Hq.
  - rewrite bsum_push_arcs, <- bsum_guard_mul_l.
    apply bsum_ext; intros ar _. cbn [asrc albl adst awt fst snd].
    destruct (Nat.eqb (asrc ar) q) eqn:E; cbn [andb]; [|destruct (seqb (V (asrc ar)) 0); reflexivity].
    apply Nat.eqb_eq in E. subst q. destruct (seqb_reflect F (V (asrc ar)) 0); [contradiction|].
    destruct (lbl_eqb (albl ar) a); [|reflexivity]. rewrite <- (IH (adst ar)). ring.
Qed.

Theorem push_pw : forall (V : nat -> F) (m : wfsa F), backward_eq V m ->
  (forall q, V q = 0 -> forall xs, pw m q xs = 0) ->
  forall xs q, V q <> 0 -> V q * pw (push_with V m) q xs = pw m q xs.
Proof. intros V m HB HZ xs q _. apply push_pw_scaled; assumption. Qed.

Theorem push_weight : forall (V : nat -> F) (m : wfsa F), backward_eq V m ->
  (forall q, V q = 0 -> forall xs, pw m q xs = 0) ->
  forall xs, weight (push_with V m) xs = weight m xs.
Proof.
  intros V m HB HZ xs. rewrite !forward_pathsum. unfold pathsum.
  rewrite bsum_push_init. apply bsum_ext; intros e _. cbn [fst snd].
  rewrite <- (push_pw_scaled V m HB HZ xs (fst e)).
  destruct (seqb_reflect F (V (fst e)) 0) as [E|_]; [rewrite E|]; ring.
Qed.

Lemma wget_vscale (c : F) (v : wvec F) (q : nat) : wget (vscale c v) q = c * wget v q.
Proof. unfold wget, vscale. rewrite bsum_map. apply bsum_guard_mul_l. Qed.

Lemma fstep_linear (m : wfsa F) (k : F) (v v' : wvec F) (a : nat) :
  (forall q, wget v q = k * wget v' q) ->
  forall q, wget (fstep m v a) q = k * wget (fstep m v' a) q.
Proof.
  intros H q. rewrite !wget_fstep, <- bsum_guard_mul_l.
  apply bsum_ext; intros ar _.
  destruct (Nat.eqb (adst ar) q && lbl_eqb (albl ar) a); [|reflexivity].
  rewrite H. ring.
Qed.

Lemma fold_fstep_linear (m : wfsa F) (k : F) (xs : list nat) : forall (v v' : wvec F),
  (forall q, wget v q = k * wget v' q) ->
  forall q, wget (fold_left (fstep m) xs v) q = k * wget (fold_left (fstep m) xs v') q.
Proof.
  induction xs as [|a t IH]; intros v v' H q.
  - cbn [fold_left]. apply H.
  - cbn [fold_left]. apply IH. apply fstep_linear, H.
Qed.

Theorem det_step_forward : forall (m : wfsa F) (Q : wvec F) (a : nat) (q : nat),
  fst (det_step m Q a) <> 0 ->
  wget (fstep m Q a) q = fst (det_step m Q a) * wget (snd (det_step m Q a)) q.
Proof.
  intros m Q a q HW. unfold det_step in *. cbn [fst snd] in *.
  rewrite wget_vscale. change (det_R m Q a) with (fstep m Q a) in *.
  symmetry. apply finv_cancel, HW.
Qed.

Theorem det_run_forward : forall (m : wfsa F) (xs : list nat) (c : F) (Q : wvec F) (q : nat),
  det_defined m Q xs ->
  c * wget (fold_left (fstep m) xs Q) q = fst (det_run m c Q xs) * wget (snd (det_run m c Q xs)) q.
Proof.
  intros m xs. induction xs as [|a t IH]; intros c Q q HD.
  - cbn [fold_left det_run fst snd]. reflexivity.
  - cbn [fold_left det_run det_defined] in *.
    pose proof (det_step_forward m Q a) as HS.
    destruct (det_step m Q a) as [W Q'] eqn:E. cbn [fst snd] in HS.
    destruct HD as [HW HD].
    rewrite <- (IH (c * W) Q' q HD).
    rewrite (fold_fstep_linear m W t (fstep m Q a) Q' (fun q' => HS q' HW) q).
    apply (smul_assoc F).
Qed.

Theorem det_value_weight : forall (m : wfsa F) (xs : list nat),
  det_defined m (winit m) xs -> det_value m xs = weight m xs.
Proof.
  intros m xs HD. unfold det_value, weight, fwd.
  pose proof (fun q => det_run_forward m xs 1 (winit m) q HD) as HR.
  destruct (det_run m 1 (winit m) xs) as [c Q]. cbn [fst snd] in HR.
  rewrite <- bsum_mul_l. apply bsum_ext; intros e _.
  rewrite (smul_assoc F), <- HR, (Ring_theory.SRmul_1_l (sth F)). reflexivity.
Qed.

End DetProofs.

Print Assumptions push_stochastic.
Print Assumptions push_pw.
Print Assumptions push_weight.
Print Assumptions det_step_forward.
Print Assumptions det_run_forward.
Print Assumptions det_value_weight.
