(* Semiring laws for the regenerated Log class (scores in R ∪ {-inf}).  Its add is the stable
   form  larger + log (1 + exp (smaller - larger));  add_fin shows that on finite scores this is
   ln (exp a + exp b), after which the laws are those of sum and product on the positive reals read
   through ln and exp.  star is  - log (1 - exp score). *)
From Coq Require Import Reals Psatz.
From GV.lib Require Import NumDialect.
From GV.gen Require Import Gen_Semiring.
Import RD.
Local Open Scope R_scope.
Import RR.Log.

Definition lse (a b : R) : R := ln (exp a + exp b).

Lemma L_spec x y : x + ln (1 + exp (y - x)) = ln (exp x + exp y).
Proof. rewrite <- (ln_exp x) at 1. rewrite <- ln_mult; [|apply exp_pos|pose proof (exp_pos (y-x)); lra].
  f_equal. rewrite Rmult_plus_distr_l, <- exp_plus. f_equal; [ring|f_equal; ring]. Qed.

Lemma kposb_pos x : 0 < x -> kposb x = true.
Proof. intros; unfold kposb; destruct (Rlt_dec 0 x); [reflexivity|contradiction]. Qed.

Lemma add_fin a b : add (Fin a) (Fin b) = Fin (lse a b).
Proof. unfold add, zero, eeqb, egtb, eadd, esub, eexp, elog, elit, lse. simpl.
  unfold kgtb. destruct (Rlt_dec b a).
  - rewrite kposb_pos by (pose proof (exp_pos (b - a)); lra). f_equal. apply L_spec.
  - rewrite kposb_pos by (pose proof (exp_pos (a - b)); lra). f_equal. rewrite L_spec. f_equal. apply Rplus_comm. Qed.

Lemma add_neg_l a : add NegInf a = a. Proof. reflexivity. Qed.
Lemma add_neg_r a : add a NegInf = a. Proof. destruct a; reflexivity. Qed.
Lemma mul_fin a b : mul (Fin a) (Fin b) = Fin (a + b). Proof. reflexivity. Qed.
Lemma mul_neg_l a : mul NegInf a = NegInf. Proof. reflexivity. Qed.
Lemma mul_neg_r a : mul a NegInf = NegInf. Proof. destruct a; reflexivity. Qed.

Lemma exp_lse a b : exp (lse a b) = exp a + exp b.
Proof. unfold lse. apply exp_ln. pose proof (exp_pos a); pose proof (exp_pos b); lra. Qed.

(* a law with a -inf argument holds by computation; with finite arguments it is a law of lse *)
Lemma add_assoc a b c : add a (add b c) = add (add a b) c.
Proof.
  destruct a as [|a]; [reflexivity|]. destruct b as [|b]; [reflexivity|]. destruct c as [|c]; [symmetry; apply add_neg_r|].
  rewrite !add_fin. apply f_equal. unfold lse at 1 3. rewrite !exp_lse, Rplus_assoc. reflexivity.
Qed.
Lemma add_comm a b : add a b = add b a.
Proof.
  destruct a as [|a], b as [|b]; try reflexivity. rewrite !add_fin. unfold lse. rewrite Rplus_comm. reflexivity.
Qed.
Lemma add_0_l a : add zero a = a. Proof. reflexivity. Qed.
Lemma mul_assoc a b c : mul a (mul b c) = mul (mul a b) c.
Proof. destruct a as [|a], b as [|b], c as [|c]; try reflexivity. exact (f_equal Fin (eq_sym (Rplus_assoc a b c))). Qed.
Lemma mul_comm a b : mul a b = mul b a.
Proof. destruct a as [|a], b as [|b]; try reflexivity. exact (f_equal Fin (Rplus_comm a b)). Qed.
Lemma mul_1_l a : mul one a = a.
Proof. destruct a as [|a]; [reflexivity|]. exact (f_equal Fin (Rplus_0_l a)). Qed.
Lemma mul_0_l a : mul zero a = zero. Proof. reflexivity. Qed.
Lemma lse_shift a b c : a + lse b c = lse (a + b) (a + c).
Proof. unfold lse. rewrite !exp_plus, <- Rmult_plus_distr_l, ln_mult; [rewrite ln_exp; reflexivity|apply exp_pos|].
  pose proof (exp_pos b); pose proof (exp_pos c); lra. Qed.
Lemma distr_l a b c : mul a (add b c) = add (mul a b) (mul a c).
Proof.
  destruct a as [|a]; [reflexivity|]. destruct b as [|b]; [reflexivity|]. destruct c as [|c]; [reflexivity|].
  rewrite !mul_fin, !add_fin, mul_fin. apply f_equal, lse_shift.
Qed.
Lemma distr_r a b c : mul (add b c) a = add (mul b a) (mul c a).
Proof. rewrite (mul_comm (add b c) a), (mul_comm b a), (mul_comm c a). apply distr_l. Qed.

(* the star laws hold for scores < 0 (including -inf), where 1 - exp score is positive *)
Definition neg (a : T) := match a with NegInf => True | Fin x => x < 0 end.
Lemma star_l a : neg a -> star a = add one (mul a (star a)).
Proof. destruct a as [|x]; simpl; intros Hx.
  - unfold star, eexp, eopp, eadd, elit, elog. rewrite kposb_pos by lra.
    unfold one, elit. rewrite mul_neg_l, add_neg_r. f_equal.
    rewrite Ropp_0, Rplus_0_r, ln_1. apply Ropp_0.
  - assert (He : exp x < 1) by (rewrite <- exp_0; apply exp_increasing; assumption).
    unfold star, eexp, eopp, eadd, elit, elog. rewrite kposb_pos by lra.
    unfold one, elit. rewrite mul_fin, add_fin. f_equal. unfold lse.
    rewrite exp_0, exp_plus, exp_Ropp, exp_ln by lra.
    rewrite <- ln_Rinv by lra. f_equal. field. lra. Qed.
Lemma star_r a : neg a -> star a = add one (mul (star a) a).
Proof. intros H. rewrite (mul_comm (star a) a). apply star_l; assumption. Qed.
