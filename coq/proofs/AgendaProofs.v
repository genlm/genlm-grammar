(* The semi-naive update of CFG.agenda.  When old[u] becomes new = old[u] + v, the sum over
   the routing positions k of u in a rule body of the products (new before k, v at k, old
   after k) is exactly the change of the body product.  With the regenerated [agenda_sel] /
   [agenda_new] this makes "value + pending = right-hand side under the current values" an
   invariant of the loop of model/Agenda2.v under any pop order, and when nothing is pending
   the chart solves the grammar equations. *)
From Coq Require Import List Arith Lia.
From GV.lib Require Import Semiring BigSum.
From GV.model Require Import Cfg Agenda Agenda2.
From GV.gen Require Import Gen_Exprs.
From GV.proofs Require Import CfgTrees.
Import ListNotations.
Local Open Scope sr_scope.

Section AgendaProofs.
Variable S : SR.
Add Ring SRing : (sth S).

(* [factor] and [occ] with an arbitrary start index *)
Definition fac_from (old : sym -> S) (u : sym) (new v : S) (o : nat) (body : list sym) (k : nat) : S :=
  sprod (map (fun jy : nat * sym =>
                if sym_eqb u (snd jy) then agenda_sel S (fst jy) k new v (old u) else old (snd jy))
             (combine (seq o (length body)) body)).

Definition occ_from (u : sym) (o : nat) (body : list sym) : list nat :=
  map fst (filter (fun jy : nat * sym => sym_eqb u (snd jy)) (combine (seq o (length body)) body)).

Lemma fac_from_0 old u new v body k :
  factor (agenda_sel S) old u new v body k = fac_from old u new v O body k.
Proof. reflexivity. Qed.

Lemma occ_from_0 u body : occ u body = occ_from u O body.
Proof. reflexivity. Qed.

Lemma fac_from_cons old u new v o y t k :
  fac_from old u new v o (y :: t) k
  = (if sym_eqb u y then agenda_sel S o k new v (old u) else old y) * fac_from old u new v (Datatypes.S o) t k.
Proof. reflexivity. Qed.

Lemma occ_from_cons u o y t :
  occ_from u o (y :: t) = if sym_eqb u y then o :: occ_from u (Datatypes.S o) t else occ_from u (Datatypes.S o) t.
Proof. unfold occ_from. simpl. destruct (sym_eqb u y); reflexivity. Qed.

Lemma occ_from_ge u body : forall o k, In k (occ_from u o body) -> o <= k.
Proof.
  induction body as [|y t IH]; intros o k Hin.
  - contradiction.
  - rewrite occ_from_cons in Hin. destruct (sym_eqb u y).
    + destruct Hin as [Hin|Hin]; [lia|]. apply IH in Hin. lia.
    + apply IH in Hin. lia.
Qed.

(* a routing position before the whole list: every occurrence of u uses old u *)
Lemma fac_from_before old u new v body : forall o k, k < o ->
  fac_from old u new v o body k = sprod (map old body).
Proof.
  induction body as [|y t IH]; intros o k Hk.
  - reflexivity.
  - rewrite fac_from_cons. rewrite IH by lia. simpl map. simpl sprod.
    destruct (sym_eqb u y) eqn:E; [|reflexivity].
    apply sym_eqb_eq in E. subst y. unfold agenda_sel.
    destruct (Nat.ltb_spec o k) as [H|H]; [lia|].
    destruct (Nat.eqb_spec o k) as [H'|H']; [lia|]. reflexivity.
Qed.

Lemma seminaive_from old u v body : forall o,
  sprod (map (upd old u (agenda_new S (old u) v)) body)
  = sprod (map old body)
    + bsum (occ_from u o body) (fac_from old u (agenda_new S (old u) v) v o body).
Proof.
  (* peel the first body symbol y (position o).  The positions to its right see the updated
     value at o (occ_from_ge), so the head factor comes out of the tail sum; if y = u, position
     o itself sees v and old to its right (fac_from_before).  With P' = P + D the induction
     hypothesis for the tail (product after = product before + tail sum),
     new * P' = old u * P + v * P + new * D;  if y <> u, old y factors out of every term. *)
  set (new := agenda_new S (old u) v).
  induction body as [|y t IH]; intros o.
  - symmetry. apply sadd_0_r.
  - simpl map. simpl sprod. rewrite (IH (Datatypes.S o)). rewrite occ_from_cons.
    assert (Hsum : bsum (occ_from u (Datatypes.S o) t) (fac_from old u new v o (y :: t))
                   = upd old u new y * bsum (occ_from u (Datatypes.S o) t) (fac_from old u new v (Datatypes.S o) t)).
    { rewrite <- bsum_mul_l. apply bsum_ext; intros k Hk. apply occ_from_ge in Hk.
      rewrite fac_from_cons. unfold upd, agenda_sel. destruct (sym_eqb u y); [|reflexivity].
      destruct (Nat.ltb_spec o k) as [H|H]; [reflexivity|lia]. }
    unfold upd in *. destruct (sym_eqb u y) eqn:E.
    + apply sym_eqb_eq in E. subst y. rewrite bsum_cons, Hsum.
      rewrite fac_from_cons, sym_eqb_refl, fac_from_before by lia.
      unfold agenda_sel. rewrite Nat.ltb_irrefl, Nat.eqb_refl.
      unfold new at 1 3. unfold agenda_new. ring.
    + rewrite Hsum. ring.
Qed.

Theorem seminaive_identity : forall (old : sym -> S) (u : sym) (v : S) (body : list sym),
  let new := agenda_new S (old u) v in
  sprod (map (upd old u new) body)
  = sprod (map old body) + bsum (occ u body) (fun k => factor (agenda_sel S) old u new v body k).
Proof.
  intros old u v body new. unfold new.
  rewrite (seminaive_from old u v body O). rewrite occ_from_0.
  f_equal.
Qed.

End AgendaProofs.

Section AgendaLoop.
Variable S : SR.
Add Ring LoopRing : (sth S).

Lemma pend_nil (x : sym) : pend (@nil (sym * S)) x = 0.
Proof. reflexivity. Qed.

Lemma pend_app (ch1 ch2 : pending S) (x : sym) : pend (ch1 ++ ch2) x = pend ch1 x + pend ch2 x.
Proof. apply bsum_app. Qed.

Lemma pend_map {A} (f : A -> sym * S) (l : list A) (x : sym) :
  pend (map f l) x = bsum l (fun a => if sym_eqb x (fst (f a)) then snd (f a) else 0).
Proof. apply bsum_map. Qed.

Lemma pend_flat_map {A} (f : A -> pending S) (l : list A) (x : sym) :
  pend (flat_map f l) x = bsum l (fun a => pend (f a) x).
Proof. apply bsum_flat_map. Qed.

Lemma pend_single (y : sym) (w : S) (x : sym) : pend [(y, w)] x = if sym_eqb x y then w else 0.
Proof. unfold pend. rewrite bsum_cons, bsum_nil. apply sadd_0_r. Qed.

Lemma sprod_const_zero (body : list sym) : body <> [] -> sprod (map (fun _ : sym => (0 : S)) body) = 0.
Proof. destruct body as [|y t]; intros H; [congruence|]. apply smul_0_l. Qed.


Theorem ainv_init : forall (G : grammar S) (terminals : list nat),
  NoDup terminals -> ainv G terminals (ainit G terminals).
Proof.
  intros G terminals Hnd. split; [intros a|intros X]; rewrite pend_app, pend_map, pend_flat_map; cbn [fst snd sym_eqb].
  - rewrite (bsum_delta_nat S terminals a (fun _ => 1) Hnd), bsum_zero; [rewrite sadd_0_l; apply sadd_0_r|]. intros r _. destruct (rbody r); [apply pend_single|reflexivity].
  - rewrite bsum_const_zero. unfold rhs_val.
    rewrite (bsum_ext S G _ (fun r => if Nat.eqb (rhead r) X then rw r * sprod (map (fun _ => 0) (rbody r)) else 0)); [rewrite sadd_0_l; apply sadd_0_l|].
    intros r _. rewrite (Nat.eqb_sym (rhead r) X). destruct (rbody r) as [|y t].
    + rewrite pend_single. cbn. rewrite smul_1_r. reflexivity.
    + rewrite pend_nil, sprod_const_zero, smul_0_r by discriminate. destruct (Nat.eqb X (rhead r)); reflexivity.
Qed.

Lemma pend_pushes_N (G : grammar S) (old : sym -> S) (u : sym) (v : S) (X : nat) :
  pend (pushes (agenda_sel S) (agenda_new S) G old u v) (N X)
  = bsum G (fun r => if Nat.eqb (rhead r) X
                     then rw r * bsum (occ u (rbody r))
                                      (fun k => factor (agenda_sel S) old u (agenda_new S (old u) v) v (rbody r) k)
                     else 0).
Proof.
  unfold pend, pushes. rewrite bsum_flat_map. apply bsum_ext; intros r _.
  rewrite bsum_map. simpl. rewrite (Nat.eqb_sym X (rhead r)).
  destruct (Nat.eqb (rhead r) X).
  - apply bsum_mul_l.
  - apply bsum_const_zero.
Qed.

Lemma pend_pushes_T (G : grammar S) (old : sym -> S) (u : sym) (v : S) (a : nat) :
  pend (pushes (agenda_sel S) (agenda_new S) G old u v) (T a) = 0.
Proof.
  unfold pend, pushes. rewrite bsum_flat_map. apply bsum_zero; intros r _.
  rewrite bsum_map. simpl. apply bsum_const_zero.
Qed.

Lemma rhs_val_upd (G : grammar S) (old : sym -> S) (u : sym) (v : S) (X : nat) :
  rhs_val G (upd old u (agenda_new S (old u) v)) X
  = rhs_val G old X + pend (pushes (agenda_sel S) (agenda_new S) G old u v) (N X).
Proof.
  rewrite pend_pushes_N. unfold rhs_val. rewrite <- bsum_add.
  apply bsum_ext; intros r _.
  destruct (Nat.eqb (rhead r) X); [|ring].
  pose proof (seminaive_identity S old u v (rbody r)) as Hs. cbv zeta in Hs.
  rewrite Hs. ring.
Qed.

(* after popping (u, v) and adding it to old[u], value plus pending is what it was *)
Lemma upd_pops (old : sym -> S) (ch ch' : pending S) (u : sym) (v : S) (x : sym) :
  pops ch u v ch' -> upd old u (agenda_new S (old u) v) x + pend ch' x = old x + pend ch x.
Proof.
  intros Hp. rewrite (Hp x). unfold upd, agenda_new. rewrite (sym_eqb_sym x u).
  destruct (sym_eqb u x) eqn:E; [apply sym_eqb_eq in E; subst x|]; ring.
Qed.

Lemma upd_same (old : sym -> S) (u : sym) (w : S) (x : sym) : old u = w -> upd old u w x = old x.
Proof. intros <-. unfold upd. destruct (sym_eqb u x) eqn:E; [apply sym_eqb_eq in E; subst x|]; reflexivity. Qed.

Theorem ainv_step : forall (G : grammar S) (terminals : list nat) (old : sym -> S) (ch : pending S)
    (u : sym) (v : S) (ch' : pending S),
  ainv G terminals (old, ch) -> pops ch u v ch' ->
  ainv G terminals (astep (agenda_sel S) (agenda_new S) G old u v ch').
Proof.
  intros G terminals old ch u v ch' [HT HN] Hp. unfold astep.
  destruct (seqb_reflect S (old u) (agenda_new S (old u) v)) as [E|_].
  - (* the update does not change the value: dropped *)
    assert (Hx : forall x, old x + pend ch' x = old x + pend ch x).
    { intros x. rewrite <- (upd_pops old ch ch' u v x Hp), (upd_same old u _ x E). reflexivity. }
    split; [intros a; rewrite Hx; apply HT|intros X; rewrite Hx; apply HN].
  - (* the value changes: old[u] := new and the rule updates are pushed *)
    split; [intros a|intros X]; rewrite pend_app.
    + rewrite pend_pushes_T, <- (HT a), <- (upd_pops old ch ch' u v (T a) Hp). ring.
    + rewrite rhs_val_upd, <- (HN X), <- (upd_pops old ch ch' u v (N X) Hp). ring.
Qed.

Theorem ainv_reachable : forall G terminals st, NoDup terminals ->
  areach (agenda_sel S) (agenda_new S) G terminals st -> ainv G terminals st.
Proof.
  intros G terminals st Hnd Hr. induction Hr as [|old ch u v ch' Hr IH Hp].
  - apply ainv_init; assumption.
  - eapply ainv_step; eassumption.
Qed.

Theorem agenda_fixpoint : forall G terminals old ch, NoDup terminals ->
  areach (agenda_sel S) (agenda_new S) G terminals (old, ch) -> (forall x, pend ch x = 0) ->
  (forall a, old (T a) = if existsb (Nat.eqb a) terminals then 1 else 0) /\
  (forall X, old (N X) = rhs_val G old X).
Proof.
  intros G terminals old ch Hnd Hr Hz.
  destruct (ainv_reachable G terminals (old, ch) Hnd Hr) as [HT HN]. split.
  - intros a. rewrite <- (HT a), Hz. symmetry. apply sadd_0_r.
  - intros X. rewrite <- (HN X), Hz. symmetry. apply sadd_0_r.
Qed.

End AgendaLoop.

Print Assumptions seminaive_identity.
Print Assumptions ainv_init.
Print Assumptions ainv_step.
Print Assumptions ainv_reachable.
Print Assumptions agenda_fixpoint.
