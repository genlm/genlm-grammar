(* String-level reading of the next-token mask for Boolean grammars: a context is viable
   (its prefix weight is true at some height) exactly when it can be completed to a string
   of the grammar; viability is closed under taking prefixes, so a non-viable context has
   an empty mask; and the strings of the grammar are exactly the yields of derivation trees
   built from rules of weight true. *)
From Coq Require Import List Arith Bool.
From GV.lib Require Import Semiring BigSum.
From GV.model Require Import Cfg MachSpec Prefix.
From GV.proofs Require Import CfgTrees PrefixTrees.
Import ListNotations.

Definition in_language (G : grammar BoolSR) (X : nat) (xs : list nat) : Prop :=
  exists h, W G h X xs = true.

Lemma is_prefix_iff : forall p l : list nat,
  is_prefix p l = true <-> exists rest, l = p ++ rest.
Proof.
  induction p as [|a p IH]; intros l.
  - simpl. split; [intros _; exists l; reflexivity|reflexivity].
  - destruct l as [|b l]; simpl.
    + split; [intros H; discriminate H|intros [rest H]; discriminate H].
    + rewrite andb_true_iff, Nat.eqb_eq, IH. split.
      * intros [E [rest H]]. subst b l. exists rest. reflexivity.
      * intros [rest H]. injection H as E1 E2. split; [symmetry; exact E1|exists rest; exact E2].
Qed.

Lemma is_prefix_refl : forall xs : list nat, is_prefix xs xs = true.
Proof. intros xs. apply is_prefix_iff. exists []. symmetry. apply app_nil_r. Qed.

Lemma is_prefix_app_l : forall (p q xs : list nat),
  is_prefix (p ++ q) xs = true -> is_prefix p xs = true.
Proof.
  intros p q xs H. apply is_prefix_iff in H. destruct H as [rest ->].
  apply is_prefix_iff. exists (q ++ rest). symmetry. apply app_assoc.
Qed.

Theorem language_iff_tree : forall (G : grammar BoolSR) (X : nat) (xs : list nat),
  in_language G X xs <-> exists t, twf BoolSR G (N X) t /\ tyield t = xs /\ tweight t = true.
Proof.
  intros G X xs. unfold in_language.
  transitivity (exists h, bsum (filter (yields xs) (trees G h X)) tweight = true).
  { split; intros [h Hh]; exists h; [rewrite <- W_trees|rewrite W_trees]; exact Hh. }
  rewrite bool_trees_filter. unfold yields.
  split; intros [t [Hwf [Hy Hw]]]; exists t; (split; [exact Hwf|split; [|exact Hw]]);
    apply list_eqb_nat_spec; exact Hy.
Qed.

Theorem viable_iff_completable : forall (G : grammar BoolSR) (X : nat) (p : list nat),
  (exists h, Wpre G h X p = true) <-> (exists xs, is_prefix p xs = true /\ in_language G X xs).
Proof.
  intros G X p. rewrite Wpre_bool_viable. split.
  - intros [t [Hwf [Hp Hw]]]. exists (tyield t). split; [exact Hp|].
    apply language_iff_tree. exists t. split; [exact Hwf|split; [reflexivity|exact Hw]].
  - intros [xs [Hp Hl]]. apply language_iff_tree in Hl.
    destruct Hl as [t [Hwf [Hy Hw]]]. subst xs.
    exists t. split; [exact Hwf|split; assumption].
Qed.

Theorem viable_prefix_closed : forall (G : grammar BoolSR) (X : nat) (p q : list nat),
  (exists h, Wpre G h X (p ++ q) = true) -> (exists h, Wpre G h X p = true).
Proof.
  intros G X p q H. apply viable_iff_completable in H. apply viable_iff_completable.
  destruct H as [xs [Hp Hl]]. exists xs. split; [|exact Hl].
  exact (is_prefix_app_l p q xs Hp).
Qed.

Corollary nonviable_mask_empty : forall (G : grammar BoolSR) (X : nat) (p : list nat),
  (forall h, Wpre G h X p = false) -> forall t h, Wpre G h X (p ++ [t]) = false.
Proof.
  intros G X p Hno t h. destruct (Wpre G h X (p ++ [t])) eqn:E; [exfalso|reflexivity].
  destruct (viable_prefix_closed G X p [t] (ex_intro _ h E)) as [h' Hh'].
  rewrite (Hno h') in Hh'. discriminate Hh'.
Qed.

Print Assumptions language_iff_tree.
Print Assumptions viable_iff_completable.
Print Assumptions viable_prefix_closed.
Print Assumptions nonviable_mask_empty.

(* X0 -> 1 X1 ; X1 -> 0 ; X1 -> eps : the strings are [1;0] and [1] *)
Definition mask_ex_G : grammar BoolSR :=
  [ (true, 0, [T 1; N 1]); (true, 1, [T 0]); (true, 1, []) ].

Example mask_ex_viable : Wpre mask_ex_G 3 0 [1] = true.
Proof. vm_compute. reflexivity. Qed.

Example mask_ex_nonviable : Wpre mask_ex_G 3 0 [0] = false.
Proof. vm_compute. reflexivity. Qed.

Example mask_ex_string : W mask_ex_G 3 0 [1;0] = true.
Proof. vm_compute. reflexivity. Qed.

Example mask_ex_completable :
  exists xs, is_prefix [1] xs = true /\ in_language mask_ex_G 0 xs.
Proof.
  apply (proj1 (viable_iff_completable mask_ex_G 0 [1])).
  exact (ex_intro _ 3 eq_refl).
Qed.

Print Assumptions mask_ex_completable.
