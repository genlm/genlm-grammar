(* The product construction [compose_nf] (FST._pruned_compose without pruning)
   computes relational composition: when the left machine never writes epsilon
   and the right machine never reads epsilon, the product relates x to z with
   weight  sum over the middle strings y of  a(x,y) * b(y,z).
   The file also holds what other files take from here: the word lists words_eq / words_le
   over which such sums range (with their one-symbol unfoldings), and the one-step form of
   [trelf] (arcterm, trelf_S, and what an arc contributes given its labels). *)
From Coq Require Import List Arith Bool Lia.
From GV.lib Require Import Semiring BigSum.
From GV.model Require Import Fst.
Import ListNotations.
Local Open Scope sr_scope.

(* all words over V of length exactly n / at most n *)
Fixpoint words_eq (V : list nat) (n : nat) : list (list nat) :=
  match n with
  | O => [[]]
  | Datatypes.S n' => flat_map (fun a => map (cons a) (words_eq V n')) V
  end.
Fixpoint words_le (V : list nat) (n : nat) : list (list nat) :=
  match n with
  | O => [[]]
  | Datatypes.S n' => words_le V n' ++ words_eq V (Datatypes.S n')
  end.

Lemma words_eq_length (V : list nat) : forall n w, In w (words_eq V n) -> length w = n.
Proof.
  induction n as [|n IH]; intros w Hw.
  - cbn [words_eq] in Hw. destruct Hw as [<-|[]]. reflexivity.
  - cbn [words_eq] in Hw. apply in_flat_map in Hw. destruct Hw as [c [_ Hw]].
    apply in_map_iff in Hw. destruct Hw as [w' [<- Hw']]. simpl. f_equal. apply IH; exact Hw'.
Qed.

Lemma flat_map_nil {A B} (g : A -> list B) (l : list A) : (forall a, g a = []) -> flat_map g l = [].
Proof. intros Hg. induction l as [|x t IH]; simpl; [reflexivity|]. rewrite Hg, IH. reflexivity. Qed.

Lemma penc_inj (M p q p' q' : nat) :
  q < M -> q' < M -> penc M p q = penc M p' q' -> p = p' /\ q = q'.
Proof.
  unfold penc. intros Hq Hq' E.
  assert (Hp : p = p') by nia.
  subst p'. split; [reflexivity|lia].
Qed.

Lemma penc_eqb (M p q p' q' : nat) :
  q < M -> q' < M -> Nat.eqb (penc M p q) (penc M p' q') = Nat.eqb p p' && Nat.eqb q q'.
Proof.
  intros Hq Hq'. destruct (Nat.eqb_spec (penc M p q) (penc M p' q')) as [E|E].
  - apply penc_inj in E; try assumption. destruct E as [-> ->]. rewrite !Nat.eqb_refl. reflexivity.
  - destruct (Nat.eqb_spec p p') as [->|_]; [|reflexivity].
    destruct (Nat.eqb_spec q q') as [->|_]; [contradiction|reflexivity].
Qed.

Section Product.
Variable S : SR.
Add Ring SRing : (sth S).

Lemma bsum_words_eq_S (V : list nat) (n : nat) (g : list nat -> S) :
  bsum (words_eq V (Datatypes.S n)) g =
  bsum V (fun c => bsum (words_eq V n) (fun w => g (c :: w))).
Proof.
  change (words_eq V (Datatypes.S n)) with (flat_map (fun a => map (cons a) (words_eq V n)) V).
  rewrite bsum_flat_map. apply bsum_ext; intros c _. apply bsum_map.
Qed.

Lemma bsum_words_le_S (V : list nat) (n : nat) (g : list nat -> S) :
  bsum (words_le V (Datatypes.S n)) g =
  g [] + bsum V (fun c => bsum (words_le V n) (fun w => g (c :: w))).
Proof.
  induction n as [|n IH].
  - change (words_le V 1) with ([[]] ++ words_eq V 1).
    rewrite bsum_app, bsum_words_eq_S.
    change (words_le V O) with [@nil nat]. change (words_eq V O) with [@nil nat].
    rewrite bsum_cons, bsum_nil, sadd_0_r. reflexivity.
  - change (words_le V (Datatypes.S (Datatypes.S n)))
      with (words_le V (Datatypes.S n) ++ words_eq V (Datatypes.S (Datatypes.S n))).
    rewrite bsum_app, IH, bsum_words_eq_S.
    change (words_le V (Datatypes.S n)) with (words_le V n ++ words_eq V (Datatypes.S n)).
    rewrite (bsum_ext S V _ _ (fun c _ => bsum_app S (words_le V n) (words_eq V (Datatypes.S n)) (fun w => g (c :: w)))).
    rewrite bsum_add. symmetry. apply sadd_assoc.
Qed.

(* a sum over blocks indexed by V in which only the block of a contributes *)
Lemma bsum_flat_map_single {A} (V : list nat) (g : nat -> list A) (a : nat) (t : A -> S) :
  NoDup V -> In a V -> (forall x ar, In ar (g x) -> x <> a -> t ar = 0) ->
  bsum (flat_map g V) t = bsum (g a) t.
Proof.
  intros Hnd Ha Hz. rewrite bsum_flat_map. apply (BigSum.bsum_single S V a (fun x => bsum (g x) t) Hnd Ha).
  intros x _ Hx. apply bsum_zero. intros ar Har. exact (Hz x ar Har Hx).
Qed.

Lemma bsum_swap4 {A B C D} (la : list A) (lb : list B) (lc : list C) (ld : list D)
      (f : A -> B -> C -> D -> S) :
  bsum la (fun a => bsum lb (fun b => bsum lc (fun c => bsum ld (fun d => f a b c d)))) =
  bsum lc (fun c => bsum ld (fun d => bsum la (fun a => bsum lb (fun b => f a b c d)))).
Proof.
  rewrite (bsum_swap3 S la lb lc (fun a b c => bsum ld (fun d => f a b c d))).
  apply bsum_ext; intros c _.
  apply (bsum_swap3 S la lb ld (fun a b d => f a b c d)).
Qed.

Lemma fget_pair (M : nat) (u v : list (nat * S)) (p q : nat) :
  q < M -> (forall j, In j v -> fst j < M) ->
  fget (flat_map (fun i => map (fun j => (penc M (fst i) (fst j), snd i * snd j)) v) u) (penc M p q)
  = fget u p * fget v q.
Proof.
  intros Hq Hv. unfold fget. rewrite bsum_flat_map, bsum_bsum_mul.
  apply bsum_ext; intros i _. rewrite bsum_map. apply bsum_ext; intros j Hj. cbn [fst snd].
  rewrite penc_eqb by (try apply Hv; assumption).
  destruct (Nat.eqb p (fst i)); [|symmetry; apply smul_0_l].
  destruct (Nat.eqb q (fst j)); [reflexivity|symmetry; apply smul_0_r].
Qed.

Definition arcterm (m : fst_t S) (f : nat) (q : nat) (xs ys : list nat) (x : tarc S) : S :=
  if Nat.eqb (tsrc x) q then
    match eat (tin x) xs, eat (tout x) ys with
    | Some xs', Some ys' => twt x * trelf m f (tdst x) xs' ys'
    | _, _ => 0
    end
  else 0.

(* the [+ 0] is what unfolding the model's [trelf] at fuel 0 leaves *)
Lemma trelf_O (m : fst_t S) q xs ys :
  trelf m O q xs ys = (match xs, ys with [], [] => fget (tfinal m) q | _, _ => 0 end) + 0.
Proof. reflexivity. Qed.

Lemma trelf_S (m : fst_t S) f q xs ys :
  trelf m (Datatypes.S f) q xs ys =
  (match xs, ys with [], [] => fget (tfinal m) q | _, _ => 0 end) +
  bsum (tarcs m) (arcterm m f q xs ys).
Proof. reflexivity. Qed.

Lemma trelf_S_cons_r (m : fst_t S) f q xs c ys :
  trelf m (Datatypes.S f) q xs (c :: ys) = bsum (tarcs m) (arcterm m f q xs (c :: ys)).
Proof. rewrite trelf_S. destruct xs; apply sadd_0_l. Qed.

Lemma trelf_S_cons_l (m : fst_t S) f q c xs ys :
  trelf m (Datatypes.S f) q (c :: xs) ys = bsum (tarcs m) (arcterm m f q (c :: xs) ys).
Proof. rewrite trelf_S. apply sadd_0_l. Qed.

Lemma eat_some_cons c d (w : list nat) :
  eat (Some c) (d :: w) = if Nat.eqb c d then Some w else None.
Proof. reflexivity. Qed.

Lemma eat_some_nil c : eat (Some c) [] = None.
Proof. reflexivity. Qed.

Lemma arcterm_mk (m : fst_t S) f q xs ys s i o d (w : S) :
  arcterm m f q xs ys (s, i, o, d, w) =
  if Nat.eqb s q then
    match eat i xs, eat o ys with
    | Some xs', Some ys' => w * trelf m f d xs' ys'
    | _, _ => 0
    end
  else 0.
Proof. reflexivity. Qed.

Lemma arcterm_ll (m : fst_t S) f q a xs b ys s i o d (w : S) :
  arcterm m f q (a :: xs) (b :: ys) (s, Some i, Some o, d, w) =
  if Nat.eqb s q && (Nat.eqb i a && Nat.eqb o b) then w * trelf m f d xs ys else 0.
Proof.
  rewrite arcterm_mk, !eat_some_cons.
  destruct (Nat.eqb s q); destruct (Nat.eqb i a); destruct (Nat.eqb o b); reflexivity.
Qed.

Lemma arcterm_out_eq (m : fst_t S) f q xs c w x :
  tout x = Some c ->
  arcterm m f q xs (c :: w) x =
  if Nat.eqb (tsrc x) q then
    match eat (tin x) xs with Some xs' => twt x * trelf m f (tdst x) xs' w | None => 0 end
  else 0.
Proof.
  intros H. unfold arcterm. rewrite H, eat_some_cons, Nat.eqb_refl.
  destruct (Nat.eqb (tsrc x) q); [|reflexivity]. destruct (eat (tin x) xs); reflexivity.
Qed.

Lemma arcterm_out_ne (m : fst_t S) f q xs c d w x :
  tout x = Some c -> c <> d -> arcterm m f q xs (d :: w) x = 0.
Proof.
  intros H Hne. unfold arcterm. rewrite H, eat_some_cons.
  apply Nat.eqb_neq in Hne. rewrite Hne.
  destruct (Nat.eqb (tsrc x) q); [|reflexivity]. destruct (eat (tin x) xs); reflexivity.
Qed.

Lemma arcterm_out_nil (m : fst_t S) f q xs c x :
  tout x = Some c -> arcterm m f q xs [] x = 0.
Proof.
  intros H. unfold arcterm. rewrite H, eat_some_nil.
  destruct (Nat.eqb (tsrc x) q); [|reflexivity]. destruct (eat (tin x) xs); reflexivity.
Qed.

Lemma arcterm_in_eq (m : fst_t S) f q c w zs y :
  tin y = Some c ->
  arcterm m f q (c :: w) zs y =
  if Nat.eqb (tsrc y) q then
    match eat (tout y) zs with Some zs' => twt y * trelf m f (tdst y) w zs' | None => 0 end
  else 0.
Proof.
  intros H. unfold arcterm. rewrite H, eat_some_cons, Nat.eqb_refl. reflexivity.
Qed.

Lemma arcterm_in_ne (m : fst_t S) f q c d w zs y :
  tin y = Some c -> c <> d -> arcterm m f q (d :: w) zs y = 0.
Proof.
  intros H Hne. unfold arcterm. rewrite H, eat_some_cons.
  apply Nat.eqb_neq in Hne. rewrite Hne.
  destruct (Nat.eqb (tsrc y) q); reflexivity.
Qed.

Lemma arcterm_in_nil (m : fst_t S) f q c zs y :
  tin y = Some c -> arcterm m f q [] zs y = 0.
Proof.
  intros H. unfold arcterm. rewrite H, eat_some_nil.
  destruct (Nat.eqb (tsrc y) q); reflexivity.
Qed.

(* a machine that reads (writes) a symbol on every arc stops on the empty input (output) *)
Lemma trelf_nil_l (m : fst_t S) fuel q zs :
  (forall ar, In ar (tarcs m) -> exists c, tin ar = Some c) ->
  trelf m fuel q [] zs = match zs with [] => fget (tfinal m) q | _ :: _ => 0 end.
Proof.
  intros Hm. destruct fuel as [|f].
  - rewrite trelf_O. destruct zs; apply sadd_0_r.
  - rewrite trelf_S, bsum_zero.
    + destruct zs; apply sadd_0_r.
    + intros ar Har. destruct (Hm ar Har) as [c Hc]. eapply arcterm_in_nil; eassumption.
Qed.

Lemma trelf_nil_r (m : fst_t S) fuel p xs :
  (forall ar, In ar (tarcs m) -> exists c, tout ar = Some c) ->
  trelf m fuel p xs [] = match xs with [] => fget (tfinal m) p | _ :: _ => 0 end.
Proof.
  intros Hm. destruct fuel as [|f].
  - rewrite trelf_O. destruct xs; apply sadd_0_r.
  - rewrite trelf_S, bsum_zero.
    + destruct xs; apply sadd_0_r.
    + intros ar Har. destruct (Hm ar Har) as [c Hc]. eapply arcterm_out_nil; eassumption.
Qed.

(* arcs generated symbol by symbol, g x reading x: only those of the symbol read can move *)
Lemma step_on_label (V : list nat) (g : nat -> list (tarc S)) (m : fst_t S) f q a xs ys :
  NoDup V -> In a V -> (forall x ar, In ar (g x) -> tin ar = Some x) ->
  bsum (flat_map g V) (arcterm m f q (a :: xs) ys) = bsum (g a) (arcterm m f q (a :: xs) ys).
Proof.
  intros Hnd Ha Hg. apply bsum_flat_map_single; try assumption.
  intros x ar Har Hx. exact (arcterm_in_ne m f q x a xs ys ar (Hg x ar Har) Hx).
Qed.

Lemma step_off_label (V : list nat) (g : nat -> list (tarc S)) (m : fst_t S) f q e xs ys :
  ~ In e V -> (forall x ar, In ar (g x) -> tin ar = Some x) ->
  bsum (flat_map g V) (arcterm m f q (e :: xs) ys) = 0.
Proof.
  intros He Hg. apply bsum_zero. intros ar Har. apply in_flat_map in Har. destruct Har as [x [Hx Har]].
  apply (arcterm_in_ne m f q x e xs ys ar (Hg x ar Har)). intros ->. contradiction.
Qed.

Lemma trel_single_init (m : fst_t S) q fuel xs ys :
  tinit m = [(q, 1)] -> trel m fuel xs ys = trelf m fuel q xs ys.
Proof. intros H. unfold trel. rewrite H, bsum_cons, bsum_nil, sadd_0_r. apply smul_1_l. Qed.

Section Main.
Variables (M : nat) (V : list nat) (a b : fst_t S).
Hypothesis HV : NoDup V.
Hypothesis Ha : forall ar, In ar (tarcs a) -> exists y, tout ar = Some y /\ In y V.
Hypothesis Hb : forall ar, In ar (tarcs b) -> exists y, tin ar = Some y.
Hypothesis Hst : forall q,
  (In q (map fst (tinit b)) \/ In q (map fst (tfinal b)) \/
   (exists ar, In ar (tarcs b) /\ (tsrc ar = q \/ tdst ar = q))) -> q < M.

Lemma tarcs_compose :
  tarcs (compose_nf M a b) =
  flat_map (fun x => flat_map (fun y =>
      if olbl_eqb (tout x) (tin y)
      then [(penc M (tsrc x) (tsrc y), tin x, tout y, penc M (tdst x) (tdst y), twt x * twt y)]
      else []) (tarcs b)) (tarcs a).
Proof. reflexivity. Qed.

Lemma tinit_compose :
  tinit (compose_nf M a b) =
  flat_map (fun i => map (fun j => (penc M (fst i) (fst j), snd i * snd j)) (tinit b)) (tinit a).
Proof. reflexivity. Qed.

Lemma tfinal_compose :
  tfinal (compose_nf M a b) =
  flat_map (fun i => map (fun j => (penc M (fst i) (fst j), snd i * snd j)) (tfinal b)) (tfinal a).
Proof. reflexivity. Qed.

(* the term of the empty middle string: both machines must already be at a final state *)
Lemma final_compose fuel p q (xs zs : list nat) : q < M ->
  match xs, zs with [], [] => fget (tfinal (compose_nf M a b)) (penc M p q) | _, _ => 0 end =
  trelf a fuel p xs [] * trelf b fuel q [] zs.
Proof.
  intros Hq. rewrite (trelf_nil_l b _ _ _ Hb), (trelf_nil_r a).
  2:{ intros ar Har. destruct (Ha ar Har) as [y [Hy _]]. exists y. exact Hy. }
  destruct xs; [destruct zs|]; [|symmetry; apply smul_0_r|symmetry; apply smul_0_l].
  rewrite tfinal_compose. apply fget_pair; [assumption|].
  intros j Hj. apply Hst. right; left. apply in_map; assumption.
Qed.

(* a pair of arcs meeting on the middle symbol c *)
Lemma arcterm_mid f p q xs zs c w x y : tout x = Some c -> tin y = Some c ->
  arcterm a f p xs (c :: w) x * arcterm b f q (c :: w) zs y =
  if Nat.eqb (tsrc x) p && Nat.eqb (tsrc y) q then
    match eat (tin x) xs, eat (tout y) zs with
    | Some xs', Some zs' => (twt x * twt y) * (trelf a f (tdst x) xs' w * trelf b f (tdst y) w zs')
    | _, _ => 0
    end
  else 0.
Proof.
  intros Hx Hy. rewrite (arcterm_out_eq a f p xs c w x Hx), (arcterm_in_eq b f q c w zs y Hy).
  destruct (Nat.eqb (tsrc x) p); cbn [andb]; [|apply smul_0_l].
  destruct (Nat.eqb (tsrc y) q); [|apply smul_0_r].
  destruct (eat (tin x) xs); [|apply smul_0_l]. destruct (eat (tout y) zs); [ring|apply smul_0_r].
Qed.

Lemma pair_term f p q xs zs x y :
  (forall p q xs zs, q < M ->
     trelf (compose_nf M a b) f (penc M p q) xs zs =
     bsum (words_le V f) (fun ys => trelf a f p xs ys * trelf b f q ys zs)) ->
  q < M -> In x (tarcs a) -> In y (tarcs b) ->
  bsum (if olbl_eqb (tout x) (tin y)
        then [(penc M (tsrc x) (tsrc y), tin x, tout y, penc M (tdst x) (tdst y), twt x * twt y)]
        else [])
       (arcterm (compose_nf M a b) f (penc M p q) xs zs)
  = bsum V (fun c => bsum (words_le V f) (fun w =>
      arcterm a f p xs (c :: w) x * arcterm b f q (c :: w) zs y)).
Proof.
  intros IH Hq Hx Hy.
  destruct (Ha x Hx) as [cx [Hox Hcx]]. destruct (Hb y Hy) as [cy Hiy].
  assert (Hsy : tsrc y < M) by (apply Hst; right; right; exists y; auto).
  assert (Hdy : tdst y < M) by (apply Hst; right; right; exists y; auto).
  rewrite (bsum_single S V cx _ HV Hcx).
  2:{ intros c _ Hc. apply bsum_zero; intros w _.
      rewrite (arcterm_out_ne a f p xs cx c w x Hox) by congruence. apply smul_0_l. }
  cbv beta. unfold olbl_eqb. rewrite Hox, Hiy.
  destruct (Nat.eqb_spec cx cy) as [<-|Ec].
  - rewrite bsum_cons, bsum_nil, arcterm_mk, penc_eqb by assumption.
    rewrite (bsum_ext S _ _ _ (fun w _ => arcterm_mid f p q xs zs cx w x y Hox Hiy)).
    destruct (Nat.eqb (tsrc x) p && Nat.eqb (tsrc y) q); [|rewrite bsum_const_zero; apply sadd_0_r].
    destruct (eat (tin x) xs) as [xs'|]; [|rewrite bsum_const_zero; apply sadd_0_r].
    destruct (eat (tout y) zs) as [zs'|]; [|rewrite bsum_const_zero; apply sadd_0_r].
    rewrite IH, bsum_mul_l by assumption. apply sadd_0_r.
  - rewrite bsum_nil. symmetry. apply bsum_zero; intros w _.
    rewrite (arcterm_in_ne b f q cy cx w zs y Hiy) by congruence. apply smul_0_r.
Qed.

(* Fuel bounds the number of arcs of a path.  A product arc is one arc of a and one arc of b that
   meet on a middle symbol, so a product path of at most [fuel] arcs is a pair of paths of at most
   [fuel] arcs each, and the middle string has one symbol per arc: the same fuel serves all three
   machines and the middle strings range over [words_le V fuel]. *)
Lemma compose_state : forall fuel p q xs zs, q < M ->
  trelf (compose_nf M a b) fuel (penc M p q) xs zs =
  bsum (words_le V fuel) (fun ys => trelf a fuel p xs ys * trelf b fuel q ys zs).
Proof.
  induction fuel as [|f IH]; intros p q xs zs Hq.
  - change (words_le V O) with [@nil nat]. rewrite bsum_cons, bsum_nil.
    rewrite trelf_O, (final_compose O) by assumption. reflexivity.
  - rewrite bsum_words_le_S. cbv beta.
    rewrite (trelf_S (compose_nf M a b)), (final_compose (Datatypes.S f)) by assumption.
    f_equal.
    transitivity (bsum (tarcs a) (fun x => bsum (tarcs b) (fun y =>
        bsum V (fun c => bsum (words_le V f) (fun w =>
          arcterm a f p xs (c :: w) x * arcterm b f q (c :: w) zs y))))).
    + rewrite tarcs_compose, bsum_flat_map. apply bsum_ext; intros x Hx.
      rewrite bsum_flat_map. apply bsum_ext; intros y Hy.
      apply pair_term; assumption.
    + rewrite bsum_swap4.
      apply bsum_ext; intros c _. apply bsum_ext; intros w _.
      rewrite trelf_S_cons_r, trelf_S_cons_l, bsum_bsum_mul. reflexivity.
Qed.

End Main.

Theorem compose_nf_relational : forall (M : nat) (V : list nat) (a b : fst_t S) (fuel : nat) (xs zs : list nat),
    NoDup V ->
    (forall ar, In ar (tarcs a) -> exists y, tout ar = Some y /\ In y V) ->
    (forall ar, In ar (tarcs b) -> exists y, tin ar = Some y) ->
    (forall q, (In q (map fst (tinit b)) \/ In q (map fst (tfinal b)) \/ (exists ar, In ar (tarcs b) /\ (tsrc ar = q \/ tdst ar = q))) -> q < M) ->
    trel (compose_nf M a b) fuel xs zs = bsum (words_le V fuel) (fun ys => trel a fuel xs ys * trel b fuel ys zs).
Proof.
  intros M V a b fuel xs zs HV Ha Hb Hst.
  unfold trel. rewrite tinit_compose, bsum_flat_map.
  transitivity (bsum (tinit a) (fun i => bsum (tinit b) (fun j =>
      bsum (words_le V fuel) (fun ys =>
        (snd i * trelf a fuel (fst i) xs ys) * (snd j * trelf b fuel (fst j) ys zs))))).
  - apply bsum_ext; intros i _. rewrite bsum_map. apply bsum_ext; intros j Hj. cbn [fst snd].
    rewrite (compose_state M V a b HV Ha Hb Hst)
      by (apply Hst; left; apply in_map; assumption).
    rewrite <- bsum_mul_l. apply bsum_ext; intros ys _. ring.
  - rewrite bsum_swap3.
    apply bsum_ext; intros ys _. rewrite bsum_bsum_mul. reflexivity.
Qed.

End Product.

Print Assumptions compose_nf_relational.
