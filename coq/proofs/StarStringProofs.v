(* Union for the epsilon-aware path sums, Kleene star, and the automaton of a single
   weighted string (WFSA.from_string).
   - pathsum_e (wunion a b) = pathsum_e a + pathsum_e b, for every fuel;
   - star = one + plus: A*(x) = [x = empty] + A+(x);
   - the machine built from a string xs with weight w gives w to xs and 0 to every
     other string; the translation of WFSA.from_string regenerated from wfsa/base.py
     is this machine ([gen_from_string_model]). *)
From Coq Require Import List Arith Lia BinNat.
From GV.lib Require Import Semiring BigSum.
From GV.model Require Import Cfg Wfsa WfsaEps.
From GV.gen Require Import Gen_FromString.
From GV.proofs Require Import WfsaProofs RationalOps.
Import ListNotations.
Local Open Scope sr_scope.

Section StarString.
Variable S : SR.
Add Ring SRing : (sth S).

Theorem union_pathsum_e : forall (a b : wfsa S) fuel xs,
  pathsum_e (wunion a b) fuel xs = pathsum_e a fuel xs + pathsum_e b fuel xs.
Proof.
  intros a b fuel xs. unfold pathsum_e. rewrite wunion_init, bsum_app, !bsum_map.
  f_equal; apply bsum_ext; intros e _; cbn [fst snd].
  - rewrite (pwe_embed S _ _ _ (embeds_union_L S a b)). reflexivity.
  - rewrite (pwe_embed S _ _ _ (embeds_union_R S a b)). reflexivity.
Qed.

Theorem star_unfold : forall (a : wfsa S) (xs : list nat),
  (forall ar, In ar (warcs a) -> albl ar <> None) ->
  (forall i f, In i (winit a) -> In f (wfinal a) -> fst i <> fst f) ->
  forall fuel, 2 * length xs < fuel ->
  pathsum_e (wstar a) fuel xs = (match xs with [] => 1 | _ => 0 end) + kplus a (length xs) xs.
Proof.
  intros a xs Ha Hif fuel Hlen. unfold wstar.
  rewrite union_pathsum_e, (one_pathsum S xs fuel) by lia.
  rewrite (plus_unfold S a xs Ha Hif fuel Hlen). reflexivity.
Qed.

Definition from_string (xs : list nat) (w : S) : wfsa S :=
  mkW [(O, 1)] [(length xs, w)]
      (map (fun ix => (fst ix, Some (snd ix), Datatypes.S (fst ix), 1)) (combine (seq 0 (length xs)) xs)).

(* the machine of x :: xs is an arc reading x in front of the machine of xs, shifted by one *)
Lemma from_string_arcs_cons x xs (w : S) :
  warcs (from_string (x :: xs) w) = (O, Some x, 1%nat, 1) :: map (amap Datatypes.S) (warcs (from_string xs w)).
Proof.
  unfold from_string; cbn [warcs length seq combine map fst snd]. f_equal.
  generalize O. induction xs as [|y xs IH]; intros o; cbn [length seq combine map]; [reflexivity|].
  rewrite IH. reflexivity.
Qed.

Lemma embeds_from_string_cons x xs (w : S) :
  embeds Datatypes.S (from_string xs w) (from_string (x :: xs) w).
Proof.
  split; intros q; [reflexivity|]. intros F.
  rewrite from_string_arcs_cons, outs_cons, asrc_mk, (outs_rename S Datatypes.S eq_add_S).
  cbn [Nat.eqb]. ring.
Qed.

Lemma from_string_pw (w : S) : forall xs ys,
  pw (from_string xs w) O ys = if list_eqb Nat.eqb ys xs then w else 0.
Proof.
  induction xs as [|x xs IH]; intros [|y t]; try (cbn; ring).
  rewrite pw_cons, from_string_arcs_cons, outs_cons, outs_rename_off by reflexivity.
  rewrite asrc_mk, albl_mk, adst_mk, awt_mk. cbn [Nat.eqb lbl_eqb list_eqb].
  rewrite (pw_embed S _ _ _ (embeds_from_string_cons x xs w) t O), IH.
  destruct (Nat.eqb y x); cbn [andb]; ring.
Qed.

Theorem from_string_weight : forall (xs : list nat) (w : S) (ys : list nat),
  pathsum (from_string xs w) ys = if list_eqb Nat.eqb ys xs then w else 0.
Proof.
  intros xs w ys. unfold pathsum. unfold from_string at 1; cbn [winit].
  rewrite bsum_cons, bsum_nil. cbn [fst snd].
  rewrite from_string_pw. ring.
Qed.

Theorem from_string_weight_call : forall xs w ys,
  weight (from_string xs w) ys = if list_eqb Nat.eqb ys xs then w else 0.
Proof. intros xs w ys. rewrite forward_pathsum. apply from_string_weight. Qed.

End StarString.

Arguments from_string {S} xs w.

Print Assumptions union_pathsum_e.
Print Assumptions star_unfold.
Print Assumptions from_string_weight.
Print Assumptions from_string_weight_call.

Local Close Scope sr_scope.
Definition ex_acc : wfsa NSR := @mkW NSR [(0, 1%N)] [(1, 1%N)] [(0, Some 7, 1, 2%N)].

Example StarString_nonvacuous :
  pathsum (@from_string NSR [3; 4] 5%N) [3; 4] = 5%N /\
  pathsum (@from_string NSR [3; 4] 5%N) [3] = 0%N /\
  pathsum_e (wstar ex_acc) 9 [7; 7] = 4%N /\
  pathsum_e (wstar ex_acc) 9 [] = 1%N.
Proof. vm_compute. repeat split; reflexivity. Qed.
Print Assumptions StarString_nonvacuous.

(* the generated translation of WFSA.from_string (gen/Gen_FromString.v: states are the prefixes, named by
   their lengths) is [from_string] *)
Lemma gfs_combine_seq : forall (l : list nat) (o : nat),
  combine (seq o (length l)) l
  = map (fun i => (i, nth (i - o) l 0)) (seq o (length l)).
Proof.
  induction l as [|x t IH]; intros o.
  - reflexivity.
  - cbn [length seq combine map]. f_equal.
    + rewrite Nat.sub_diag. reflexivity.
    + rewrite IH. apply map_ext_in. intros i Hi. apply in_seq in Hi.
      replace (i - o) with (Datatypes.S (i - Datatypes.S o)) by lia. reflexivity.
Qed.

Lemma gfs_firstn_len : forall (xs : list nat) i, i <= length xs -> length (firstn i xs) = i.
Proof. intros xs i H. rewrite firstn_length. apply Nat.min_l. exact H. Qed.

Lemma gen_from_string_model : forall (S : SR) (xs : list nat) (w : S),
  gen_from_string S xs w = from_string xs w.
Proof.
  intros S xs w. unfold gen_from_string, from_string. f_equal.
  rewrite (gfs_combine_seq xs 0), map_map.
  apply map_ext_in. intros i Hi. apply in_seq in Hi. cbn [fst snd].
  rewrite Nat.sub_0_r.
  rewrite (gfs_firstn_len xs i) by lia.
  rewrite (gfs_firstn_len xs (i + 1)) by lia.
  rewrite Nat.add_1_r. reflexivity.
Qed.

Print Assumptions gen_from_string_model.
