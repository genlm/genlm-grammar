(* Substitution of component grammars for the terminals ("tokens") of a top grammar.
   The assembled grammar  A = map (subst_rule st) Gtop ++ Gcomp  has the substitution
   semantics at the level of solutions of the grammar equations: if f solves Gtop (read
   over the token alphabet) and g solves Gcomp (over characters), then the substituted
   valuation F (component nonterminals keep g; a top nonterminal Z gets
   sum over token strings tau of  f Z tau * seg tau xs) solves A.
   Valid for every commutative semiring, cyclic grammars included.

   The key lemma enumerates the token strings up to an ARBITRARY bound
   n >= length xs (lemma SG_bound shows the sum does not depend on the bound, because
   seg tau xs = 0 when tau is longer than xs -- this is where "no token matches the
   empty string" is used).  What the sum SG does to the language of a body is said by
   three lemmas, one for each shape of a body (empty: SG_nilw, a token first: SG_tok, a
   nonterminal first: SG_conv); Wb_subst is the induction over the body calling them, and
   CfgBytesProofs reads CFG.to_bytes through the same three. *)
From Coq Require Import List Arith Lia.
From GV.lib Require Import Semiring BigSum.
From GV.model Require Import Cfg.
From GV.proofs Require Import UnfoldProofs CkyProofs FoldProofs ProductProofs.
Import ListNotations.
Local Open Scope sr_scope.

Local Notation Sn := Datatypes.S.

(* T t  becomes  N (st t);  nonterminals are kept *)
Definition subst_sym (st : nat -> nat) (s : sym) : sym :=
  match s with T t => N (st t) | N Y => N Y end.

Lemma words_eq_spec (V : list nat) : forall n tau,
  In tau (words_eq V n) -> length tau = n /\ Forall (fun t => In t V) tau.
Proof.
  induction n as [|n IH]; intros tau Hin.
  - cbn [words_eq] in Hin. destruct Hin as [<-|[]]. split; [reflexivity|constructor].
  - cbn [words_eq] in Hin. apply in_flat_map in Hin. destruct Hin as [a [Ha Hin]].
    apply in_map_iff in Hin. destruct Hin as [w [<- Hw]].
    destruct (IH w Hw) as [Hl HF]. split; [cbn [length]; f_equal; exact Hl|].
    constructor; assumption.
Qed.

Lemma words_le_spec (V : list nat) : forall n tau,
  In tau (words_le V n) -> length tau <= n /\ Forall (fun t => In t V) tau.
Proof.
  induction n as [|n IH]; intros tau Hin.
  - cbn [words_le] in Hin. destruct Hin as [<-|[]]. split; [cbn; lia|constructor].
  - cbn [words_le] in Hin. apply in_app_or in Hin. destruct Hin as [Hin|Hin].
    + destruct (IH tau Hin) as [Hl HF]. split; [lia|exact HF].
    + destruct (words_eq_spec V (Sn n) tau Hin) as [Hl HF]. split; [lia|exact HF].
Qed.

Section Subst.
Variable S : SR.
Add Ring SubstRing : (sth S).

Definition subst_rule (st : nat -> nat) (r : rule S) : rule S :=
  (rw r, rhead r, map (subst_sym st) (rbody r)).

Lemma rhead_subst st (r : rule S) : rhead (subst_rule st r) = rhead r.
Proof. reflexivity. Qed.
Lemma rw_subst st (r : rule S) : rw (subst_rule st r) = rw r.
Proof. reflexivity. Qed.
Lemma rbody_subst st (r : rule S) : rbody (subst_rule st r) = map (subst_sym st) (rbody r).
Proof. reflexivity. Qed.

Definition is_head (G : grammar S) (Z : nat) : bool :=
  existsb (fun r => Nat.eqb (rhead r) Z) G.

Lemma is_head_true (G : grammar S) Z :
  is_head G Z = true <-> exists r, In r G /\ rhead r = Z.
Proof.
  unfold is_head. split.
  - intros H. apply existsb_exists in H. destruct H as [r [Hr E]].
    exists r. split; [exact Hr|apply Nat.eqb_eq; exact E].
  - intros [r [Hr E]]. apply existsb_exists. exists r. split; [exact Hr|apply Nat.eqb_eq; exact E].
Qed.

Lemma is_head_false (G : grammar S) Z :
  is_head G Z = false <-> forall r, In r G -> rhead r <> Z.
Proof.
  split.
  - intros E r Hr Eh. assert (Ht : is_head G Z = true) by (apply is_head_true; exists r; split; assumption).
    rewrite E in Ht. discriminate Ht.
  - intros Hn. destruct (is_head G Z) eqn:E; [|reflexivity].
    apply is_head_true in E. destruct E as [r [Hr Eh]]. exfalso. exact (Hn r Hr Eh).
Qed.

Section Seg.
Variable toks : list nat.
Variable L : nat -> list nat -> S.            (* L t xs: weight of xs as token t *)
Hypothesis Hnd : NoDup toks.
Hypothesis Lnil : forall t, In t toks -> L t [] = 0.

Fixpoint seg (tau : list nat) (xs : list nat) : S :=
  match tau with
  | [] => match xs with [] => 1 | _ => 0 end
  | t :: tau' => bsum (splits xs) (fun p => L t (fst p) * seg tau' (snd p))
  end.

Lemma seg_nil xs : seg [] xs = nilw S xs.
Proof. reflexivity. Qed.

Lemma seg_cons t tau xs :
  seg (t :: tau) xs = bsum (splits xs) (fun p => L t (fst p) * seg tau (snd p)).
Proof. reflexivity. Qed.

Lemma seg_app : forall tau1 tau2 xs,
  seg (tau1 ++ tau2) xs = bsum (splits xs) (fun p => seg tau1 (fst p) * seg tau2 (snd p)).
Proof.
  induction tau1 as [|t tau1 IH]; intros tau2 xs.
  - symmetry. exact (splits_nilw_l S (seg tau2) xs).
  - cbn [app]. rewrite seg_cons.
    transitivity (bsum (splits xs) (fun p => bsum (splits (snd p))
                    (fun q => (fun a b c => L t a * seg tau1 b * seg tau2 c) (fst p) (fst q) (snd q)))).
    { apply bsum_ext; intros p _. rewrite IH, <- bsum_mul_l.
      apply bsum_ext; intros q _. ring. }
    rewrite (splits_assoc S xs (fun a b c => L t a * seg tau1 b * seg tau2 c)).
    apply bsum_ext; intros p _. cbv beta. rewrite seg_cons, <- bsum_mul_r.
    apply bsum_ext; intros q _. reflexivity.
Qed.

(* every token consumes at least one character *)
Lemma seg_too_long : forall tau xs,
  Forall (fun t => In t toks) tau -> length xs < length tau -> seg tau xs = 0.
Proof.
  induction tau as [|t tau IH]; intros xs HF Hlen.
  - cbn [length] in Hlen. lia.
  - rewrite seg_cons. apply bsum_zero; intros p Hp.
    pose proof (splits_length xs p Hp) as Hpl.
    inversion HF as [|t' tau' Ht HF']; subst t' tau'.
    destruct (fst p) as [|c u] eqn:Efst.
    + rewrite (Lnil t Ht). ring.
    + rewrite (IH (snd p) HF'); [ring|]. cbn [length] in Hpl, Hlen. lia.
Qed.

(* the sums over token strings, with a bound on the length *)
Definition SG (n : nat) (h : list nat -> S) (xs : list nat) : S :=
  bsum (words_le toks n) (fun tau => h tau * seg tau xs).

Lemma SG_S n h xs : length xs <= n -> SG (Sn n) h xs = SG n h xs.
Proof.
  intros Hn. unfold SG. cbn [words_le]. rewrite bsum_app.
  rewrite (bsum_zero S (words_eq toks (Sn n))); [ring|].
  intros tau Hin. destruct (words_eq_spec toks (Sn n) tau Hin) as [Hl HF].
  rewrite (seg_too_long tau xs HF) by lia. ring.
Qed.

(* the bound is irrelevant as soon as it is at least the length of xs *)
Lemma SG_bound h xs : forall n m, length xs <= n -> n <= m -> SG m h xs = SG n h xs.
Proof.
  intros n m Hn Hnm. induction Hnm as [|m Hnm IH]; [reflexivity|].
  rewrite SG_S by lia. exact IH.
Qed.

Lemma SG_ext n (h h' : list nat -> S) xs :
  (forall tau, h tau = h' tau) -> SG n h xs = SG n h' xs.
Proof. intros E. unfold SG. apply bsum_ext; intros tau _. rewrite E. reflexivity. Qed.

Lemma SG_zero n (h : list nat -> S) xs : (forall tau, h tau = 0) -> SG n h xs = 0.
Proof. intros E. unfold SG. apply bsum_zero; intros tau _. rewrite E. ring. Qed.

(* the peel step of  splits (c :: w)  for all the words c :: w, c a letter of V and w a word of l *)
Lemma bsum_letters_splits {A} (V : list A) (l : list (list A)) (H : list A -> list A -> S) :
  bsum V (fun c => bsum l (fun w => bsum (splits (c :: w)) (fun q => H (fst q) (snd q))))
  = bsum V (fun c => bsum l (fun w => H [] (c :: w)))
    + bsum V (fun c => bsum l (fun w => bsum (splits w) (fun q => H (c :: fst q) (snd q)))).
Proof.
  rewrite <- bsum_add. apply bsum_ext; intros c _. rewrite <- bsum_add.
  apply bsum_ext; intros w _. apply bsum_splits_cons.
Qed.

(* pairs of words against cuts of a word: H may be anything that vanishes on the pairs
   too long to come from a word of length n *)
Lemma words_conv : forall n (H : list nat -> list nat -> S),
  (forall t1 t2, Forall (fun t => In t toks) t1 -> Forall (fun t => In t toks) t2 ->
                 n < length t1 + length t2 -> H t1 t2 = 0) ->
  bsum (words_le toks n) (fun t1 => bsum (words_le toks n) (fun t2 => H t1 t2))
  = bsum (words_le toks n) (fun tau => bsum (splits tau) (fun q => H (fst q) (snd q))).
Proof.
  induction n as [|n IH]; intros H Hz.
  - change (words_le toks 0) with [@nil nat]. rewrite !bsum_cons, !bsum_nil.
    cbn [splits]. rewrite bsum_cons, bsum_nil. reflexivity.
  - rewrite (bsum_words_le_S S toks n (fun t1 => bsum (words_le toks (Sn n)) (fun t2 => H t1 t2))).
    rewrite (bsum_words_le_S S toks n (fun tau => bsum (splits tau) (fun q => H (fst q) (snd q)))).
    rewrite (bsum_words_le_S S toks n (fun t2 => H [] t2)).
    change (splits (@nil nat)) with [(@nil nat, @nil nat)]. rewrite bsum_cons, bsum_nil. cbn [fst snd].
    rewrite bsum_letters_splits.
    rewrite (sadd_assoc S). f_equal; [rewrite sadd_0_r; reflexivity|].
    (* the words c :: w on the left: by the induction hypothesis at  H (c :: _) _ *)
    apply bsum_ext. intros c Hc. rewrite <- (IH (fun a b => H (c :: a) b)).
    + apply bsum_ext; intros w Hw. cbn [words_le]. rewrite bsum_app.
      rewrite (bsum_zero S (words_eq toks (Sn n))); [apply sadd_0_r|].
      intros t2 Ht2. destruct (words_eq_spec toks (Sn n) t2 Ht2) as [Hl2 HF2].
      destruct (words_le_spec toks n w Hw) as [_ HFw].
      apply Hz; [constructor; assumption|exact HF2|]. cbn [length]. lia.
    + intros t1 t2 HF1 HF2 Hlen. apply Hz; [constructor; assumption|exact HF2|].
      cbn [length]. lia.
Qed.

(* the empty word alone *)
Lemma SG_nilw n xs : SG n (nilw S) xs = nilw S xs.
Proof.
  unfold SG. destruct n as [|n].
  - change (words_le toks 0) with [@nil nat]. rewrite bsum_cons, bsum_nil. unfold nilw. cbn [seg]. ring.
  - rewrite bsum_words_le_S. unfold nilw. cbn [seg].
    rewrite (bsum_zero S toks); [ring|]. intros c _. apply bsum_zero; intros w _. ring.
Qed.

(* the words t :: w, weighted by h w *)
Lemma SG_tok n t (h : list nat -> S) xs : In t toks -> length xs <= n ->
  SG n (fun tau => match tau with [] => 0 | c :: w => if Nat.eqb t c then h w else 0 end) xs
  = bsum (splits xs) (fun p => L t (fst p) * SG n h (snd p)).
Proof.
  intros Ht Hn. rewrite <- (SG_S n) by exact Hn. unfold SG. rewrite bsum_words_le_S.
  rewrite (BigSum.bsum_single S toks t _ Hnd Ht).
  - rewrite Nat.eqb_refl.
    transitivity (bsum (words_le toks n) (fun w => bsum (splits xs)
                    (fun p => L t (fst p) * (h w * seg w (snd p))))).
    + rewrite smul_0_l, sadd_0_l.
      apply bsum_ext; intros w _. rewrite seg_cons, <- bsum_mul_l.
      apply bsum_ext; intros p _. ring.
    + rewrite bsum_swap. apply bsum_ext; intros p _. rewrite <- !bsum_mul_l. reflexivity.
  - intros c _ Hc. apply bsum_zero; intros w _.
    replace (Nat.eqb t c) with false by (symmetry; apply Nat.eqb_neq; congruence). ring.
Qed.

(* the Cauchy product of two weighted languages *)
Lemma SG_conv n (h1 h2 : list nat -> S) xs : length xs <= n ->
  SG n (fun tau => bsum (splits tau) (fun q => h1 (fst q) * h2 (snd q))) xs
  = bsum (splits xs) (fun p => SG n h1 (fst p) * SG n h2 (snd p)).
Proof.
  intros Hn. unfold SG. symmetry.
  transitivity (bsum (words_le toks n) (fun t1 => bsum (words_le toks n)
                  (fun t2 => h1 t1 * h2 t2 * seg (t1 ++ t2) xs))).
  { rewrite (bsum_ext S (splits xs) _
               (fun p => bsum (words_le toks n) (fun t1 => bsum (words_le toks n)
                  (fun t2 => (h1 t1 * h2 t2) * (seg t1 (fst p) * seg t2 (snd p)))))).
    2:{ intros p _. rewrite bsum_bsum_mul. apply bsum_ext; intros t1 _.
        apply bsum_ext; intros t2 _. ring. }
    rewrite <- (bsum_swap3 S (words_le toks n) (words_le toks n) (splits xs)
                  (fun t1 t2 p => (h1 t1 * h2 t2) * (seg t1 (fst p) * seg t2 (snd p)))).
    apply bsum_ext; intros t1 _. apply bsum_ext; intros t2 _.
    rewrite bsum_mul_l, seg_app. reflexivity. }
  rewrite (words_conv n (fun t1 t2 => h1 t1 * h2 t2 * seg (t1 ++ t2) xs)).
  - apply bsum_ext; intros tau _. rewrite <- bsum_mul_r.
    apply bsum_ext; intros q Hq. rewrite (splits_app tau q Hq). reflexivity.
  - intros t1 t2 HF1 HF2 Hlen. rewrite (seg_too_long (t1 ++ t2) xs).
    + ring.
    + apply Forall_app. split; assumption.
    + rewrite app_length. lia.
Qed.

Section Key.
Variable st : nat -> nat.
Variable f : nat -> list nat -> S.      (* valuation of the token-level grammar *)
Variable F : nat -> list nat -> S.      (* valuation of the assembled grammar   *)
(* the start symbol of token t carries the language of t *)
Hypothesis Ftok : forall t xs, In t toks -> F (st t) xs = L t xs.

(* the nonterminals of the body have the substituted weights; each kind of body symbol
   is one of the shapes above *)
Lemma Wb_subst : forall b,
  (forall t, In (T t) b -> In t toks) ->
  (forall Y, In (N Y) b -> forall ys, F Y ys = SG (length ys) (f Y) ys) ->
  forall xs n, length xs <= n ->
    Wb F (map (subst_sym st) b) xs = SG n (Wb f b) xs.
Proof.
  induction b as [|y rest IH]; intros HbT HbN xs n Hn.
  - symmetry. apply SG_nilw.
  - assert (IHr : forall ys, length ys <= n ->
                  Wb F (map (subst_sym st) rest) ys = SG n (Wb f rest) ys).
    { intros ys. exact (IH (fun t' Ht' => HbT t' (or_intror Ht'))
                           (fun Y' HY' => HbN Y' (or_intror HY')) ys n). }
    destruct y as [t|Y]; symmetry.
    + assert (Ht : In t toks) by (apply HbT; left; reflexivity).
      etransitivity; [exact (SG_tok n t (Wb f rest) xs Ht Hn)|].
      cbn [map subst_sym Wb]. apply bsum_ext; intros p Hp. pose proof (splits_length xs p Hp) as Hpl.
      rewrite (Ftok t (fst p) Ht), IHr by lia. reflexivity.
    + etransitivity; [exact (SG_conv n (f Y) (Wb f rest) xs Hn)|].
      cbn [map subst_sym Wb]. apply bsum_ext; intros p Hp. pose proof (splits_length xs p Hp) as Hpl.
      rewrite (HbN Y (or_introl eq_refl) (fst p)).
      rewrite <- (SG_bound (f Y) (fst p) (length (fst p)) n), IHr by lia. reflexivity.
Qed.

End Key.
End Seg.

Section Main.
Variables Gtop Gcomp : grammar S.
Variable st : nat -> nat.
Variable toks : list nat.
Variables g f : nat -> list nat -> S.

Hypothesis Hnd : NoDup toks.
(* the components do not define nonterminals of the top grammar *)
Hypothesis Hheads : forall r rc, In r Gtop -> In rc Gcomp -> rhead rc <> rhead r.
Hypothesis Hcalled : forall r rc Y, In r Gtop -> In (N Y) (rbody r) -> In rc Gcomp -> rhead rc <> Y.
(* the start symbols of the components are not defined by the top grammar *)
Hypothesis Hstarts : forall r t, In r Gtop -> In t toks -> rhead r <> st t.
(* the terminals of the top grammar are token names *)
Hypothesis Htoks : forall r t, In r Gtop -> In (T t) (rbody r) -> In t toks.
(* the components do not call nonterminals defined by the top grammar *)
Hypothesis Hcalls : forall r rc Y, In r Gtop -> In rc Gcomp -> In (N Y) (rbody rc) -> rhead r <> Y.
(* the component solution and the token-level solution *)
Hypothesis Hg : solves S Gcomp g.
Hypothesis Hf : solves S Gtop f.
(* no token matches the empty string *)
Hypothesis Hnonempty : forall t, In t toks -> g (st t) [] = 0.

Definition Ltok (t : nat) (xs : list nat) : S := g (st t) xs.

Definition assembled : grammar S := map (subst_rule st) Gtop ++ Gcomp.

(* the substituted valuation *)
Definition Fsub (Z : nat) (xs : list nat) : S :=
  if is_head Gcomp Z then g Z xs
  else bsum (words_le toks (length xs)) (fun tau => f Z tau * seg Ltok tau xs).

Lemma Fsub_comp Z xs : is_head Gcomp Z = true -> Fsub Z xs = g Z xs.
Proof. intros E. unfold Fsub. rewrite E. reflexivity. Qed.

Lemma Fsub_top Z xs : is_head Gcomp Z = false -> Fsub Z xs = SG toks Ltok (length xs) (f Z) xs.
Proof. intros E. unfold Fsub. rewrite E. reflexivity. Qed.

(* outside the heads of the top grammar Fsub is g *)
Lemma Fsub_not_top Z xs : (forall r, In r Gtop -> rhead r <> Z) -> Fsub Z xs = g Z xs.
Proof.
  intros Hn. destruct (is_head Gcomp Z) eqn:E.
  - apply Fsub_comp. exact E.
  - rewrite (Fsub_top Z xs E).
    rewrite SG_zero by (intros tau; apply (solves_nohead S Gtop f Z tau Hf Hn)).
    symmetry. apply (solves_nohead S Gcomp g Z xs Hg). apply is_head_false. exact E.
Qed.

Lemma Fsub_tok t xs : In t toks -> Fsub (st t) xs = Ltok t xs.
Proof. intros Ht. apply Fsub_not_top. intros r Hr. exact (Hstarts r t Hr Ht). Qed.

(* the key lemma instantiated at the rules of the top grammar *)
Lemma Wb_subst_rule r xs n :
  In r Gtop -> length xs <= n ->
  Wb Fsub (map (subst_sym st) (rbody r)) xs = SG toks Ltok n (Wb f (rbody r)) xs.
Proof.
  intros Hr Hn.
  apply (Wb_subst toks Ltok Hnd Hnonempty st f Fsub Fsub_tok (rbody r)).
  - intros t Ht. exact (Htoks r t Hr Ht).
  - intros Y HY ys. apply Fsub_top. apply is_head_false. intros rc Hrc.
    exact (Hcalled r rc Y Hr HY Hrc).
  - exact Hn.
Qed.

Theorem subst_solves : solves S assembled Fsub.
Proof.
  intros Z xs. unfold assembled. rewrite gstep_app.
  destruct (is_head Gcomp Z) eqn:E.
  - (* a component nonterminal: no rule of the top grammar has this head, and the bodies of
       its rules only call nonterminals on which Fsub is g *)
    rewrite (Fsub_comp Z xs E), gstep_map_nohead, sadd_0_l.
    + rewrite (Hg Z xs). symmetry. apply gstep_ext_in.
      intros rc Y ys Hrc HY. apply Fsub_not_top. intros r Hr. exact (Hcalls r rc Y Hr Hrc HY).
    + apply is_head_true in E. destruct E as [rc [Hrc <-]].
      intros r Hr Eh. exact (Hheads r rc Hr Hrc (eq_sym Eh)).
  - (* a nonterminal of the top grammar (or a symbol without rules) *)
    rewrite (gstep_nohead S Gcomp) by (apply is_head_false; exact E).
    rewrite sadd_0_r, (Fsub_top Z xs E). unfold SG.
    rewrite (bsum_ext S (words_le toks (length xs)) _
               (fun tau => gstep S Gtop f Z tau * seg Ltok tau xs))
      by (intros tau _; rewrite <- (Hf Z tau); reflexivity).
    rewrite bsum_gstep. unfold gstep. rewrite bsum_map.
    apply bsum_ext; intros r Hr. rewrite rhead_subst, rw_subst, rbody_subst.
    destruct (Nat.eqb (rhead r) Z); [|reflexivity].
    rewrite (Wb_subst_rule r xs (length xs) Hr (le_n _)). reflexivity.
Qed.

(* reading of the theorem at a top nonterminal: sum over the token strings *)
Corollary subst_top_value Z xs :
  (exists r, In r Gtop /\ rhead r = Z) ->
  Fsub Z xs = bsum (words_le toks (length xs)) (fun tau => f Z tau * seg Ltok tau xs).
Proof.
  intros [r [Hr <-]]. apply Fsub_top. apply is_head_false. intros rc Hrc.
  exact (Hheads r rc Hr Hrc).
Qed.

End Main.


(* top grammar  0 -> <token 5>,  component  10 -> 'char 7',  st 5 = 10 *)
Definition single (X0 a : nat) : grammar S := [(1, X0, [T a])].
Definition single_sol (X0 a : nat) (Z : nat) (xs : list nat) : S :=
  if Nat.eqb X0 Z then Wb (fun _ _ => 0) [T a] xs else 0.

Lemma single_solves X0 a : solves S (single X0 a) (single_sol X0 a).
Proof.
  intros Z xs. unfold gstep, single. rewrite bsum_cons, bsum_nil.
  change (rhead (1, X0, [T a])) with X0. change (rw (1, X0, [T a])) with (@s1 S).
  change (rbody (1, X0, [T a])) with [T a]. unfold single_sol at 1.
  destruct (Nat.eqb X0 Z); [|ring].
  rewrite (Wb_ext_in S (single_sol X0 a) (fun _ _ => 0) [T a]); [ring|].
  intros Y ys [HY|[]]. discriminate HY.
Qed.

Example subst_instance :
  solves S (assembled (single 0 5) (single 10 7) (fun _ => 10))
           (Fsub (single 10 7) (fun _ => 10) [5] (single_sol 10 7) (single_sol 0 5)).
Proof.
  apply subst_solves.
  - constructor; [intros []|constructor].
  - intros r rc [<-|[]] [<-|[]]. discriminate.
  - intros r rc Y [<-|[]] [HY|[]]. discriminate HY.
  - intros r t [<-|[]] _. discriminate.
  - intros r t [<-|[]] [HT|[]]. injection HT as <-. left; reflexivity.
  - intros r rc Y [<-|[]] [<-|[]] [HY|[]]. discriminate HY.
  - apply single_solves.
  - apply single_solves.
  - intros t _. reflexivity.
Qed.

End Subst.

Print Assumptions seg_app.
Print Assumptions seg_too_long.
Print Assumptions SG_bound.
Print Assumptions Wb_subst.
Print Assumptions subst_solves.
Print Assumptions subst_top_value.
Print Assumptions subst_instance.
