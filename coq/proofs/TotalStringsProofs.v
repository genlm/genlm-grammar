(* The total weight of a nonterminal after h Kleene iterations (= the total weight of
   its derivation trees of height <= h, CfgTrees.bu_iter_trees) is the sum, over
   ALL terminal strings, of the height-h derivation sum W of that string: "the value
   of the start symbol is the sum of the string weights over the whole language", at
   every height, over any commutative semiring. *)
From Coq Require Import List Arith Lia BinNat.
From GV.lib Require Import Semiring BigSum.
From GV.model Require Import Cfg Agenda.
From GV.proofs Require Import CfgTrees ProductProofs.
Import ListNotations.
Local Open Scope sr_scope.

(* words_eq V n / words_le V n (defined in ProductProofs.v): the words over V of length n / at most n *)
Lemma words_eq_complete (V : list nat) : forall w,
  (forall a, In a w -> In a V) -> In w (words_eq V (length w)).
Proof.
  induction w as [|c w IH]; intros Hw.
  - left; reflexivity.
  - cbn [length words_eq]. apply in_flat_map. exists c. split; [apply Hw; left; reflexivity|].
    apply in_map. apply IH. intros a Ha. apply Hw; right; exact Ha.
Qed.

Lemma words_le_length (V : list nat) : forall n w, In w (words_le V n) -> length w <= n.
Proof.
  induction n as [|n IH]; intros w Hw.
  - cbn [words_le] in Hw. destruct Hw as [<-|[]]. simpl; lia.
  - cbn [words_le] in Hw. apply in_app_or in Hw. destruct Hw as [Hw|Hw].
    + apply IH in Hw. lia.
    + apply words_eq_length in Hw. lia.
Qed.

Lemma words_le_complete (V : list nat) : forall n w,
  length w <= n -> (forall a, In a w -> In a V) -> In w (words_le V n).
Proof.
  induction n as [|n IH]; intros w Hl Hw.
  - destruct w; [left; reflexivity|simpl in Hl; lia].
  - cbn [words_le]. apply in_or_app.
    destruct (Nat.eq_dec (length w) (Datatypes.S n)) as [E|E].
    + right. rewrite <- E. apply words_eq_complete; exact Hw.
    + left. apply IH; [lia|exact Hw].
Qed.

Lemma words_eq_NoDup (V : list nat) : NoDup V -> forall n, NoDup (words_eq V n).
Proof.
  intros HV; induction n as [|n IH].
  - constructor; [intros []|constructor].
  - cbn [words_eq]. apply NoDup_flat_map_disj.
    + exact HV.
    + intros a _. apply FinFun.Injective_map_NoDup; [|exact IH]. intros x y H; congruence.
    + intros a b x _ _ H1 H2. apply in_map_iff in H1. apply in_map_iff in H2.
      destruct H1 as [u [H1 _]]. destruct H2 as [v [H2 _]]. congruence.
Qed.

Lemma words_le_NoDup (V : list nat) : NoDup V -> forall n, NoDup (words_le V n).
Proof.
  intros HV; induction n as [|n IH].
  - constructor; [intros []|constructor].
  - cbn [words_le]. apply NoDup_app_intro; [exact IH|apply words_eq_NoDup; exact HV|].
    intros x H1 H2. apply words_le_length in H1. apply words_eq_length in H2. lia.
Qed.

Lemma NoDup_01 : NoDup [0; 1]%nat.
Proof. constructor; [intros [E|[]]; discriminate|constructor; [intros []|constructor]]. Qed.

Section TotalStrings.
Variable S : SR.
Add Ring SRing : (sth S).

(* every tree enumerated for X at height h has its yield among the listed words *)
Definition yields_within (G : grammar S) (h X : nat) (V : list nat) (L : nat) : Prop :=
  forall t, In t (trees G h X) -> In (tyield t) (words_le V L).

Lemma trees_by_yield (G : grammar S) (V : list nat) (h X L : nat) (g : list nat -> tree S -> S) :
  NoDup V -> yields_within G h X V L ->
  bsum (trees G h X) (fun t => g (tyield t) t)
  = bsum (words_le V L) (fun xs => bsum (filter (yields xs) (trees G h X)) (g xs)).
Proof.
  intros HV Hy.
  rewrite (bsum_ext S (words_le V L) _
             (fun xs => bsum (trees G h X) (fun t => if yields xs t then g xs t else 0)))
    by (intros; apply bsum_filter).
  rewrite bsum_swap. apply bsum_ext; intros t Ht. symmetry.
  rewrite (BigSum.bsum_single S (words_le V L) (tyield t)).
  - unfold yields. rewrite list_eqb_nat_refl. reflexivity.
  - apply words_le_NoDup, HV.
  - apply Hy, Ht.
  - intros xs _ Hne. unfold yields. destruct (list_eqb Nat.eqb (tyield t) xs) eqn:E; [|reflexivity].
    apply list_eqb_nat_spec in E. congruence.
Qed.

Theorem total_is_sum_of_strings : forall (G : grammar S) (V : list nat) (h X L : nat), NoDup V ->
  yields_within G h X V L ->
  bu_iter G h X = bsum (words_le V L) (fun xs => W G h X xs).
Proof.
  intros G V h X L HV Hy.
  rewrite bu_iter_trees.
  etransitivity; [exact (trees_by_yield G V h X L (fun _ => tweight) HV Hy)|].
  apply bsum_ext; intros xs _. symmetry. apply W_trees.
Qed.

Lemma twf_yield_in (G : grammar S) (P : nat -> Prop) :
  (forall r a, In r G -> In (T a) (rbody r) -> P a) ->
  (forall s t, twf S G s t -> forall a, In a (tyield t) -> P a \/ s = T a) /\
  (forall body f, fwf S G body f -> forall a, In a (fyield f) -> P a \/ In (T a) body).
Proof.
  intros HT. apply twf_fwf_ind.
  - intros b a [<-|[]]. right; reflexivity.
  - intros i r kids Hn _ IH a Ha. left.
    destruct (IH a Ha) as [HP|Hin]; [exact HP|]. exact (HT r a (nth_error_In G i Hn) Hin).
  - intros a [].
  - intros s body t f _ IHt _ IHf a Ha. rewrite fyield_cons in Ha. apply in_app_or in Ha.
    destruct Ha as [Ha|Ha].
    + destruct (IHt a Ha) as [HP| ->]; [left; exact HP|right; left; reflexivity].
    + destruct (IHf a Ha) as [HP|Hin]; [left; exact HP|right; right; exact Hin].
Qed.

Lemma trees_yield_in (G : grammar S) (P : nat -> Prop) :
  (forall r a, In r G -> In (T a) (rbody r) -> P a) ->
  forall h X t, In t (trees G h X) -> forall a, In a (tyield t) -> P a.
Proof.
  intros HT h X t Ht a Ha. apply trees_sound in Ht.
  destruct (proj1 (twf_yield_in G P HT) (N X) t (proj1 Ht) a Ha) as [HP|E]; [exact HP|discriminate E].
Qed.

Lemma forests_yield_bound (M : nat) (tr : nat -> list (tree S)) :
  1 <= M ->
  (forall Y t, In t (tr Y) -> length (tyield t) <= M) ->
  forall body fo, In fo (forests_of tr body) -> length (fyield fo) <= length body * M.
Proof.
  intros HM Htr. induction body as [|s rest IH]; intros fo Hin.
  - simpl in Hin. destruct Hin as [<-|[]]. simpl. lia.
  - destruct s as [a|Y]; simpl in Hin.
    + apply in_map_iff in Hin. destruct Hin as [fo' [<- Hin]]. specialize (IH fo' Hin).
      rewrite fyield_cons, tyield_leaf, app_length. cbn [length]. lia.
    + apply in_flat_map in Hin. destruct Hin as [t [Ht Hin]].
      apply in_map_iff in Hin. destruct Hin as [fo' [<- Hin]].
      specialize (IH fo' Hin). specialize (Htr Y t Ht).
      rewrite fyield_cons, app_length. cbn [length]. lia.
Qed.

Lemma trees_yield_bound (G : grammar S) (K : nat) :
  (forall r, In r G -> length (rbody r) <= K) ->
  forall h X t, In t (trees G h X) -> length (tyield t) <= Nat.pow K h.
Proof.
  intros HK. induction h as [|h IH]; intros X t Hin; [contradiction|].
  cbn [trees] in Hin. apply in_flat_map in Hin. destruct Hin as [[i r] [Hir Hin]].
  cbn [fst snd] in Hin. destruct (Nat.eqb (rhead r) X); [|contradiction].
  apply in_map_iff in Hin. destruct Hin as [k [<- Hin]]. rewrite tyield_node.
  assert (Hr : length (rbody r) <= K).
  { apply HK. apply in_combine_seq_nth in Hir. destruct Hir as [j [_ Hn]]. exact (nth_error_In G j Hn). }
  destruct (rbody r) as [|s rest] eqn:Eb.
  - simpl in Hin. destruct Hin as [<-|[]]. simpl. lia.
  - assert (HM : 1 <= Nat.pow K h).
    { assert (Nat.pow K h <> O) by (apply Nat.pow_nonzero; cbn [length] in Hr; lia). lia. }
    pose proof (forests_yield_bound (Nat.pow K h) (trees G h) HM IH (s :: rest) k Hin) as Hl.
    cbn [Nat.pow]. apply (Nat.le_trans _ _ _ Hl). apply Nat.mul_le_mono_r. exact Hr.
Qed.

(* the two hypotheses on the shape of the grammar, as tests on a concrete rule list *)
Definition terminals_in (V : list nat) (G : grammar S) : bool :=
  forallb (fun r => forallb (fun s => match s with T a => existsb (Nat.eqb a) V | N _ => true end) (rbody r)) G.
Definition bodies_le (K : nat) (G : grammar S) : bool :=
  forallb (fun r => Nat.leb (length (rbody r)) K) G.

Lemma terminals_in_ok (V : list nat) (G : grammar S) :
  terminals_in V G = true -> forall r a, In r G -> In (T a) (rbody r) -> In a V.
Proof.
  intros H r a Hr Ha.
  pose proof (proj1 (forallb_forall _ _) (proj1 (forallb_forall _ _) H r Hr) (T a) Ha) as Hin.
  apply existsb_exists in Hin. destruct Hin as [b [Hb E]]. apply Nat.eqb_eq in E. subst b. exact Hb.
Qed.

Lemma bodies_le_ok (K : nat) (G : grammar S) :
  bodies_le K G = true -> forall r, In r G -> length (rbody r) <= K.
Proof. intros H r Hr. apply Nat.leb_le. exact (proj1 (forallb_forall _ _) H r Hr). Qed.

(* terminals of the grammar are in V; bodies have at most K symbols:
   yields at height h have length <= K^h *)
Theorem yields_within_bound : forall (G : grammar S) (V : list nat) (K : nat),
  (forall r a, In r G -> In (T a) (rbody r) -> In a V) ->
  (forall r, In r G -> length (rbody r) <= K) ->
  forall h X, yields_within G h X V (Nat.pow K h).
Proof.
  intros G V K HT HK h X t Ht. apply words_le_complete.
  - exact (trees_yield_bound G K HK h X t Ht).
  - exact (trees_yield_in G (fun a => In a V) HT h X t Ht).
Qed.

Corollary total_is_sum_of_all_strings : forall (G : grammar S) (V : list nat) (K : nat),
  NoDup V ->
  (forall r a, In r G -> In (T a) (rbody r) -> In a V) ->
  (forall r, In r G -> length (rbody r) <= K) ->
  forall h X, bu_iter G h X = bsum (words_le V (Nat.pow K h)) (fun xs => W G h X xs).
Proof.
  intros G V K HV HT HK h X.
  apply total_is_sum_of_strings; [exact HV|]. apply yields_within_bound; assumption.
Qed.

End TotalStrings.

Print Assumptions total_is_sum_of_strings.
Print Assumptions yields_within_bound.
Print Assumptions total_is_sum_of_all_strings.

Local Close Scope sr_scope.

Definition ex_G : grammar NSR :=
  [ (2%N, 0, [T 1; N 1]); (3%N, 1, [T 0]); (5%N, 1, []) ].

Example total_strings_instance :
  bu_iter ex_G 3 0 = 16%N /\
  bsum (words_le [0; 1] 2) (fun xs => W ex_G 3 0 xs) = 16%N /\
  W ex_G 3 0 [1; 0] = 6%N /\
  W ex_G 3 0 [1] = 10%N /\
  map (fun xs => W ex_G 3 0 xs) (words_le [0; 1] 2)
    = [0; 0; 10; 0; 0; 6; 0]%N.
Proof. vm_compute. repeat split; reflexivity. Qed.

(* the instance through the general corollary: bodies have at most 2 symbols, so the
   words of length <= 2^3 cover the language at height 3 *)
Example total_strings_instance_thm :
  bu_iter ex_G 3 0 = bsum (words_le [0; 1] (Nat.pow 2 3)) (fun xs => W ex_G 3 0 xs).
Proof.
  apply (total_is_sum_of_all_strings NSR ex_G [0; 1] 2).
  - exact NoDup_01.
  - apply terminals_in_ok. reflexivity.
  - apply bodies_le_ok. reflexivity.
Qed.

Print Assumptions total_strings_instance.
Print Assumptions total_strings_instance_thm.
