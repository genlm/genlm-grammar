(* The same two priority facts for parse/earley_rescaled.py: its regenerated priority and
   order bound are the expressions of earley.py. *)
From GV.gen Require Import Gen_Exprs.
From GV.proofs Require Import PriorityProofs.
Lemma rescaled_span_first : span_first priority_rescaled order_max_rescaled.
Proof. exact earley_span_first. Qed.
Lemma rescaled_order_first : order_first priority_rescaled order_max_rescaled.
Proof. exact earley_order_first. Qed.
