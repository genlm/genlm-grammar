(* Basic facts about model/Cfg.v shared by the whole development (unfolding equations
   of W, Wb and the tree functions, extensionality of Wb, the list of splits), and the
   link between the two semantics: the height-bounded derivation sum W is the sum of
   the weights of the enumerated derivation trees with that yield, the Kleene iterate
   bu_iter (model/Agenda.v) is the sum of the weights of all of them, and the enumeration [trees] is sound,
   complete and duplicate-free with respect to the well-formedness predicate [twf]. *)
From Coq Require Import List Arith Bool Lia.
From GV.lib Require Import Semiring BigSum.
From GV.model Require Import Cfg Agenda.
Import ListNotations.
Local Open Scope sr_scope.

Scheme tree_ind2 := Induction for tree Sort Prop with forest_ind2 := Induction for forest Sort Prop.
Combined Scheme tree_forest_ind from tree_ind2, forest_ind2.
Scheme twf_ind2 := Minimality for twf Sort Prop with fwf_ind2 := Minimality for fwf Sort Prop.
Combined Scheme twf_fwf_ind from twf_ind2, fwf_ind2.

Lemma list_eqb_map_spec {A B} (eqb : A -> A -> bool) (f : A -> B) :
  (forall a b, eqb a b = true <-> f a = f b) ->
  forall l1 l2, list_eqb eqb l1 l2 = true <-> map f l1 = map f l2.
Proof.
  intros H l1. induction l1 as [|x l1 IH]; intros [|y l2]; cbn [list_eqb map]; split; intros E;
    try reflexivity; try discriminate.
  - apply andb_true_iff in E. destruct E as [E1 E2]. apply H in E1. apply IH in E2. congruence.
  - injection E as E1 E2. apply andb_true_iff. split; [apply H; exact E1|apply IH; exact E2].
Qed.

Lemma list_eqb_spec {A} (eqb : A -> A -> bool) :
  (forall a b, eqb a b = true <-> a = b) -> forall l1 l2, list_eqb eqb l1 l2 = true <-> l1 = l2.
Proof. intros H l1 l2. rewrite (list_eqb_map_spec eqb (fun a => a) H), !map_id. reflexivity. Qed.

Lemma list_eqb_nat_spec : forall a b : list nat, list_eqb Nat.eqb a b = true <-> a = b.
Proof. exact (list_eqb_spec Nat.eqb Nat.eqb_eq). Qed.

Lemma list_eqb_nat_refl (a : list nat) : list_eqb Nat.eqb a a = true.
Proof. apply list_eqb_nat_spec; reflexivity. Qed.

Lemma sym_eqb_eq (u y : sym) : sym_eqb u y = true <-> u = y.
Proof.
  destruct u as [a|a], y as [b|b]; simpl; rewrite ?Nat.eqb_eq; split; intros H;
    try discriminate; congruence.
Qed.

Lemma sym_eqb_refl (u : sym) : sym_eqb u u = true.
Proof. apply sym_eqb_eq; reflexivity. Qed.

Lemma sym_eqb_sym (a b : sym) : sym_eqb a b = sym_eqb b a.
Proof. destruct a as [a|a], b as [b|b]; simpl; try reflexivity; apply Nat.eqb_sym. Qed.

Lemma eqb_inj_f (f : nat -> nat) (Hinj : forall p q, f p = f q -> p = q) p q :
  Nat.eqb (f p) (f q) = Nat.eqb p q.
Proof.
  destruct (Nat.eqb_spec p q) as [E|E].
  - subst. apply Nat.eqb_refl.
  - apply Nat.eqb_neq. intros H. apply E, Hinj, H.
Qed.

Lemma splits_app {A} : forall (l : list A) p, In p (splits l) -> fst p ++ snd p = l.
Proof.
  induction l as [|x t IH]; intros p Hp; simpl in Hp.
  - destruct Hp as [<-|[]]. reflexivity.
  - destruct Hp as [<-|Hp]; [reflexivity|].
    apply in_map_iff in Hp. destruct Hp as [q [<- Hq]]. cbn [fst snd].
    simpl. f_equal. apply IH. exact Hq.
Qed.

Lemma splits_length {A} (l : list A) p :
  In p (splits l) -> (length (fst p) + length (snd p))%nat = length l.
Proof. intros Hp. rewrite <- app_length. f_equal. apply splits_app. exact Hp. Qed.

Lemma in_splits {A} : forall (pre post : list A), In (pre, post) (splits (pre ++ post)).
Proof.
  induction pre as [|x pre IH]; intros post.
  - cbn [app]. destruct post as [|y t]; cbn [splits]; left; reflexivity.
  - cbn [app splits]. right. apply in_map_iff. exists (pre, post). split; [reflexivity|apply IH].
Qed.

Lemma splits_NoDup {A} (l : list A) : NoDup (splits l).
Proof.
  induction l as [|x t IH]; cbn [splits]; constructor.
  - intros [].
  - constructor.
  - intros H. apply in_map_iff in H. destruct H as [q [H _]]. discriminate.
  - apply FinFun.Injective_map_NoDup; [|exact IH]. intros [a b] [c d] H. injection H as -> ->. reflexivity.
Qed.

Lemma map_snd_combine_seq {A} (l : list A) s : map snd (combine (seq s (length l)) l) = l.
Proof.
  revert s; induction l as [|x l IH]; intros s; simpl; [reflexivity|].
  rewrite IH; reflexivity.
Qed.

Lemma in_combine_seq_nth {A} (l : list A) s i x :
  In (i, x) (combine (seq s (length l)) l) ->
  exists k, i = (s + k)%nat /\ nth_error l k = Some x.
Proof.
  revert s; induction l as [|y l IH]; intros s H; simpl in H; [contradiction|].
  destruct H as [H|H].
  - injection H as Hi Hx. subst i x. exists O. split; [lia|reflexivity].
  - apply IH in H. destruct H as [k [Hi Hk]]. subst i.
    exists (Datatypes.S k). split; [lia|exact Hk].
Qed.

Lemma nth_in_combine_seq {A} (l : list A) s k x :
  nth_error l k = Some x -> In ((s + k)%nat, x) (combine (seq s (length l)) l).
Proof.
  revert s k; induction l as [|y l IH]; intros s k H; destruct k as [|k];
    simpl in H; try discriminate.
  - injection H as Hx. subst y. simpl. left. f_equal. lia.
  - simpl. right.
    replace (s + Datatypes.S k)%nat with (Datatypes.S s + k)%nat by lia.
    apply IH; exact H.
Qed.

Lemma NoDup_app_intro {A} (l1 l2 : list A) :
  NoDup l1 -> NoDup l2 -> (forall x, In x l1 -> In x l2 -> False) -> NoDup (l1 ++ l2).
Proof.
  intros H1 H2; induction H1 as [|a l Hn Hd IH]; intros Hdis; simpl; [exact H2|].
  constructor.
  - intros Hin. apply in_app_or in Hin. destruct Hin as [Hin|Hin]; [exact (Hn Hin)|].
    apply (Hdis a); [left; reflexivity|exact Hin].
  - apply IH. intros x Hx1 Hx2. apply (Hdis x); [right; exact Hx1|exact Hx2].
Qed.

Lemma NoDup_flat_map_disj {A B} (g : A -> list B) l :
  NoDup l -> (forall a, In a l -> NoDup (g a)) ->
  (forall a b x, In a l -> In b l -> In x (g a) -> In x (g b) -> a = b) ->
  NoDup (flat_map g l).
Proof.
  intros H; induction H as [|a l Hn Hd IH]; intros Hg Hdis; simpl; [constructor|].
  apply NoDup_app_intro.
  - apply Hg; left; reflexivity.
  - apply IH.
    + intros b Hb. apply Hg; right; exact Hb.
    + intros b c x Hb Hc. apply Hdis; right; assumption.
  - intros x Hx1 Hx2. apply in_flat_map in Hx2. destruct Hx2 as [b [Hb Hx2]].
    assert (E : a = b).
    { apply (Hdis a b x); [left; reflexivity|right; exact Hb|exact Hx1|exact Hx2]. }
    subst b. exact (Hn Hb).
Qed.

Lemma NoDup_combine_l {A B} (l1 : list A) (l2 : list B) : NoDup l1 -> NoDup (combine l1 l2).
Proof.
  intros H; revert l2; induction H as [|a l Hn Hd IH]; intros l2.
  - simpl. constructor.
  - destruct l2 as [|b l2]; simpl; constructor.
    + intros Hin. apply in_combine_l in Hin. exact (Hn Hin).
    + apply IH.
Qed.

Section Trees.
Variable S : SR.
Add Ring SRing : (sth S).

Lemma rule_eta (r : rule S) : (rw r, rhead r, rbody r) = r.
Proof. destruct r as [[w x] b]; reflexivity. Qed.

Lemma W_S (G : grammar S) h X xs :
  W G (Datatypes.S h) X xs
  = bsum G (fun r => if Nat.eqb (rhead r) X then rw r * Wb (W G h) (rbody r) xs else 0).
Proof. reflexivity. Qed.

Lemma Wb_nil_nil (f : nat -> list nat -> S) : Wb f [] [] = 1.
Proof. reflexivity. Qed.
Lemma Wb_nil_cons (f : nat -> list nat -> S) a t : Wb f [] (a :: t) = 0.
Proof. reflexivity. Qed.
Lemma Wb_T_nil (f : nat -> list nat -> S) a rest : Wb f (T a :: rest) [] = 0.
Proof. reflexivity. Qed.
Lemma Wb_T_cons (f : nat -> list nat -> S) a rest b xs :
  Wb f (T a :: rest) (b :: xs) = if Nat.eqb a b then Wb f rest xs else 0.
Proof. reflexivity. Qed.
Lemma Wb_N_unfold (f : nat -> list nat -> S) Y rest xs :
  Wb f (N Y :: rest) xs = bsum (splits xs) (fun p => f Y (fst p) * Wb f rest (snd p)).
Proof. reflexivity. Qed.

Lemma tyield_leaf a : tyield (@Leaf S a) = [a]. Proof. reflexivity. Qed.
Lemma tyield_node i (r : rule S) k : tyield (Node i r k) = fyield k. Proof. reflexivity. Qed.
Lemma fyield_nil : fyield (@Fnil S) = []. Proof. reflexivity. Qed.
Lemma fyield_cons (t : tree S) f : fyield (Fcons t f) = tyield t ++ fyield f. Proof. reflexivity. Qed.
Lemma tweight_leaf a : tweight (@Leaf S a) = 1. Proof. reflexivity. Qed.
Lemma tweight_node i (r : rule S) k : tweight (Node i r k) = rw r * fweight k. Proof. reflexivity. Qed.
Lemma fweight_nil : fweight (@Fnil S) = 1. Proof. reflexivity. Qed.
Lemma fweight_cons (t : tree S) f : fweight (Fcons t f) = tweight t * fweight f. Proof. reflexivity. Qed.
Lemma theight_leaf a : theight (@Leaf S a) = O. Proof. reflexivity. Qed.
Lemma theight_node i (r : rule S) k : theight (Node i r k) = Datatypes.S (fheight k). Proof. reflexivity. Qed.
Lemma fheight_nil : fheight (@Fnil S) = O. Proof. reflexivity. Qed.
Lemma fheight_cons (t : tree S) f : fheight (Fcons t f) = Nat.max (theight t) (fheight f). Proof. reflexivity. Qed.

Lemma Wb_ext_infix (f g : nat -> list nat -> S) (body : list sym) : forall xs,
  (forall Y ys pre post, In (N Y) body -> xs = pre ++ ys ++ post -> f Y ys = g Y ys) ->
  Wb f body xs = Wb g body xs.
Proof.
  induction body as [|[a|Y] rest IH]; intros xs Hfg; [reflexivity| |].
  - destruct xs as [|b xs']; [reflexivity|]. rewrite !Wb_T_cons. destruct (Nat.eqb a b); [|reflexivity].
    apply IH. intros Y ys pre post HY E.
    apply (Hfg Y ys (b :: pre) post); [right; exact HY|rewrite E; reflexivity].
  - rewrite !Wb_N_unfold. apply bsum_ext; intros p Hp. apply splits_app in Hp. f_equal.
    + apply (Hfg Y (fst p) [] (snd p)); [left; reflexivity|symmetry; exact Hp].
    + apply IH. intros Y' ys pre post HY E.
      apply (Hfg Y' ys (fst p ++ pre) post); [right; exact HY|].
      rewrite <- Hp, E, app_assoc. reflexivity.
Qed.

Lemma Wb_ext_in (f g : nat -> list nat -> S) (body : list sym) :
  (forall Y ys, In (N Y) body -> f Y ys = g Y ys) ->
  forall xs, Wb f body xs = Wb g body xs.
Proof. intros Hfg xs. apply Wb_ext_infix. intros Y ys _ _ HY _. apply Hfg, HY. Qed.

Lemma Wb_ext (f g : nat -> list nat -> S) :
  (forall Y ys, f Y ys = g Y ys) -> forall body xs, Wb f body xs = Wb g body xs.
Proof. intros Hfg body xs. apply Wb_ext_in. intros Y ys _. apply Hfg. Qed.

Lemma bsum_head_ext (G : grammar S) X (F F' : rule S -> S) :
  (forall r, In r G -> rhead r = X -> F r = F' r) ->
  bsum G (fun r => if Nat.eqb (rhead r) X then F r else 0)
  = bsum G (fun r => if Nat.eqb (rhead r) X then F' r else 0).
Proof.
  intros H. apply bsum_ext; intros r Hr.
  destruct (Nat.eqb_spec (rhead r) X) as [E|_]; [apply H; assumption|reflexivity].
Qed.

Lemma bsum_head_zero (G : grammar S) X (F : rule S -> S) :
  (forall r, In r G -> rhead r <> X) ->
  bsum G (fun r => if Nat.eqb (rhead r) X then F r else 0) = 0.
Proof.
  intros H. apply bsum_zero; intros r Hr.
  destruct (Nat.eqb_spec (rhead r) X) as [E|_]; [destruct (H r Hr E)|reflexivity].
Qed.

Lemma in_heads (G : grammar S) r : In r G -> In (rhead r) (heads S G).
Proof. intros Hr. unfold heads. apply nodup_In, in_map, Hr. Qed.

Lemma bsum_head_nonzero (G : grammar S) X (F : rule S -> S) :
  bsum G (fun r => if Nat.eqb (rhead r) X then F r else 0) <> 0 -> In X (heads S G).
Proof.
  intros H. destruct (in_dec Nat.eq_dec X (heads S G)) as [HX|HX]; [exact HX|].
  destruct H. apply bsum_head_zero. intros r Hr E. apply HX. rewrite <- E. apply in_heads, Hr.
Qed.

Lemma W_cons_other (G : grammar S) (r0 : rule S) :
  (forall r, In r G -> ~ In (N (rhead r0)) (rbody r)) ->
  forall h X xs, X <> rhead r0 -> W (r0 :: G) h X xs = W G h X xs.
Proof.
  intros Hbodies. induction h as [|h IH]; intros X xs HX; [reflexivity|].
  rewrite !W_S, bsum_cons.
  destruct (Nat.eqb_spec (rhead r0) X) as [E|_]; [destruct (HX (eq_sym E))|].
  rewrite (bsum_head_ext G X _ (fun r => rw r * Wb (W G h) (rbody r) xs)); [apply sadd_0_l|].
  intros r Hr _. f_equal. apply Wb_ext_in. intros Y ys HY. apply IH.
  intros ->. exact (Hbodies r Hr HY).
Qed.

Lemma bsum_splits_cons {A} (a : A) l (H : list A -> list A -> S) :
  bsum (splits (a :: l)) (fun p => H (fst p) (snd p))
  = H [] (a :: l) + bsum (splits l) (fun p => H (a :: fst p) (snd p)).
Proof. cbn [splits]. rewrite bsum_cons, bsum_map. reflexivity. Qed.

Lemma bsum_splits_snd (g d : list nat -> S) u v :
  (forall w, w <> v -> d w = 0) ->
  bsum (splits (u ++ v)) (fun p => g (fst p) * d (snd p)) = g u * d v.
Proof.
  intros Hd.
  apply (bsum_single S (splits (u ++ v)) (u, v) (fun p => g (fst p) * d (snd p)));
    [apply splits_NoDup|apply in_splits|].
  intros [a b] Hp Hne. cbn [fst snd]. rewrite (Hd b); [apply smul_0_r|]. intros ->. apply Hne.
  apply splits_app, app_inv_tail in Hp. cbn [fst] in Hp. rewrite Hp. reflexivity.
Qed.

Lemma bsum_splits_fst (d g : list nat -> S) u v :
  (forall w, w <> u -> d w = 0) ->
  bsum (splits (u ++ v)) (fun p => d (fst p) * g (snd p)) = d u * g v.
Proof.
  intros Hd.
  apply (bsum_single S (splits (u ++ v)) (u, v) (fun p => d (fst p) * g (snd p)));
    [apply splits_NoDup|apply in_splits|].
  intros [a b] Hp Hne. cbn [fst snd]. rewrite (Hd a); [apply smul_0_l|]. intros ->. apply Hne.
  apply splits_app, app_inv_head in Hp. cbn [snd] in Hp. rewrite Hp. reflexivity.
Qed.

Lemma bsum_splits_nil_r (g d : list nat -> S) t :
  (forall w, w <> [] -> d w = 0) ->
  bsum (splits t) (fun p => g (fst p) * d (snd p)) = g t * d [].
Proof. intros Hd. rewrite <- (bsum_splits_snd g d t [] Hd), app_nil_r. reflexivity. Qed.

Lemma Wb_N1 (g : nat -> list nat -> S) Y xs : Wb g [N Y] xs = g Y xs.
Proof.
  rewrite Wb_N_unfold, (bsum_splits_nil_r (g Y) (Wb g [])); [apply smul_1_r|].
  intros [|a t] H; [contradiction|reflexivity].
Qed.

Lemma Wb_NN (g : nat -> list nat -> S) y z xs :
  Wb g [N y; N z] xs = bsum (splits xs) (fun p => g y (fst p) * g z (snd p)).
Proof. rewrite Wb_N_unfold. apply bsum_ext; intros p _. rewrite Wb_N1. reflexivity. Qed.

Lemma Wb_T1 (g : nat -> list nat -> S) a xs :
  Wb g [T a] xs = match xs with [b] => if Nat.eqb a b then 1 else 0 | _ => 0 end.
Proof. destruct xs as [|b [|c t]]; simpl; try reflexivity; destruct (Nat.eqb a b); reflexivity. Qed.

(* W_trees in three steps.  A given pair (u, v) matches exactly one split of xs, or none
   (unique_split); hence the product of two yield-filtered sums, summed over the splits of xs,
   is the sum over the pairs whose yields concatenate to xs (split_conv); applied symbol by
   symbol this makes Wb a yield-filtered sum over forests (Wb_forests), and bsum_trees_S puts
   the rule in front. *)
Lemma unique_split (u v xs : list nat) (c : S) :
  bsum (splits xs)
       (fun p => if list_eqb Nat.eqb u (fst p)
                 then (if list_eqb Nat.eqb v (snd p) then c else 0) else 0)
  = if list_eqb Nat.eqb (u ++ v) xs then c else 0.
Proof.
  revert u; induction xs as [|x t IH]; intros u.
  - cbn [splits]. rewrite bsum_cons, bsum_nil, sadd_0_r. destruct u, v; reflexivity.
  - cbn [splits]. rewrite bsum_cons, bsum_map. cbn [fst snd]. destruct u as [|a u'].
    + rewrite bsum_zero by (intros; reflexivity). apply sadd_0_r.
    + cbn [list_eqb app]. rewrite sadd_0_l. destruct (Nat.eqb a x); cbn [andb].
      * apply IH.
      * apply bsum_zero; reflexivity.
Qed.

Lemma split_conv {A B} (la : list A) (lb : list B) (ya : A -> list nat) (yb : B -> list nat)
      (wa : A -> S) (wb : B -> S) (xs : list nat) :
  bsum (splits xs)
       (fun p => bsum la (fun a => if list_eqb Nat.eqb (ya a) (fst p) then wa a else 0)
                 * bsum lb (fun b => if list_eqb Nat.eqb (yb b) (snd p) then wb b else 0))
  = bsum la (fun a => bsum lb (fun b =>
       if list_eqb Nat.eqb (ya a ++ yb b) xs then wa a * wb b else 0)).
Proof.
  rewrite bsum_if_mul. apply bsum_ext; intros a _. apply bsum_ext; intros b _. apply unique_split.
Qed.

Lemma Wb_forests (tr : nat -> list (tree S)) (f : nat -> list nat -> S) :
  (forall Y ys, f Y ys = bsum (filter (yields ys) (tr Y)) tweight) ->
  forall body xs,
    Wb f body xs
    = bsum (filter (fun fo => list_eqb Nat.eqb (fyield fo) xs) (forests_of tr body)) fweight.
Proof.
  intros Hf. induction body as [|s rest IH]; intros xs.
  - cbn [forests_of]. rewrite bsum_filter, bsum_cons, bsum_nil, sadd_0_r. destruct xs; reflexivity.
  - destruct s as [a|Y].
    + cbn [forests_of]. rewrite bsum_filter, bsum_map. destruct xs as [|b xs']; cbn.
      * symmetry; apply bsum_zero; intros; reflexivity.
      * destruct (Nat.eqb a b); cbn.
        -- rewrite IH, bsum_filter. apply bsum_ext; intros fo _.
           rewrite smul_1_l. reflexivity.
        -- symmetry; apply bsum_zero; intros; reflexivity.
    + simpl Wb. simpl forests_of. rewrite bsum_filter, bsum_flat_map.
      transitivity (bsum (tr Y) (fun t => bsum (forests_of tr rest) (fun fo =>
         if list_eqb Nat.eqb (tyield t ++ fyield fo) xs then tweight t * fweight fo else 0))).
      * rewrite <- split_conv. apply bsum_ext; intros p _.
        rewrite Hf, IH, !bsum_filter. reflexivity.
      * apply bsum_ext; intros t _. rewrite bsum_map. reflexivity.
Qed.

Lemma bsum_indexed (G : grammar S) (F : rule S -> S) :
  bsum (indexed S G) (fun ir => F (snd ir)) = bsum G F.
Proof.
  rewrite <- (bsum_map S (indexed S G) snd F). unfold indexed.
  rewrite map_snd_combine_seq. reflexivity.
Qed.

Lemma bsum_trees_S (G : grammar S) h X (P : tree S -> S) (Q : rule S -> forest S -> S) :
  (forall i r fo, P (Node i r fo) = Q r fo) ->
  bsum (trees G (Datatypes.S h) X) P
  = bsum G (fun r => if Nat.eqb (rhead r) X
                     then bsum (forests_of (trees G h) (rbody r)) (Q r) else 0).
Proof.
  intros HP. cbn [trees]. rewrite bsum_flat_map, <- bsum_indexed.
  apply bsum_ext; intros [i r] _. cbn [fst snd].
  destruct (Nat.eqb (rhead r) X); [|reflexivity].
  rewrite bsum_map. apply bsum_ext; intros fo _. apply HP.
Qed.

Theorem W_trees : forall (G : grammar S) (h X : nat) (xs : list nat),
  W G h X xs = bsum (filter (yields xs) (trees G h X)) tweight.
Proof.
  intros G h; induction h as [|h IH]; intros X xs; [reflexivity|].
  rewrite W_S, bsum_filter.
  rewrite (bsum_trees_S G h X _
             (fun r fo => if list_eqb Nat.eqb (fyield fo) xs then rw r * fweight fo else 0))
    by reflexivity.
  apply bsum_head_ext; intros r _ _.
  rewrite (Wb_forests (trees G h) (W G h) IH), bsum_filter, <- bsum_mul_l.
  apply bsum_ext; intros fo _. apply smul_if_r.
Qed.

Lemma bu_iter_S (G : grammar S) (h X : nat) :
  bu_iter G (Datatypes.S h) X
  = bsum G (fun r => if Nat.eqb (rhead r) X
                     then rw r * sprod (map (sval (bu_iter G h)) (rbody r)) else 0).
Proof. reflexivity. Qed.

Lemma sprod_forests (tr : nat -> list (tree S)) (V : nat -> S) :
  (forall Y, V Y = bsum (tr Y) tweight) ->
  forall body, sprod (map (sval V) body) = bsum (forests_of tr body) fweight.
Proof.
  intros HV. induction body as [|s rest IH].
  - cbn [map sprod forests_of]. rewrite bsum_cons, bsum_nil, fweight_nil. symmetry. apply sadd_0_r.
  - simpl map. simpl sprod. rewrite IH. destruct s as [a|Y].
    + cbn [forests_of sval]. rewrite bsum_map. rewrite <- bsum_mul_l.
      apply bsum_ext; intros fo _. rewrite fweight_cons, tweight_leaf. reflexivity.
    + cbn [forests_of sval]. rewrite HV. rewrite bsum_flat_map.
      rewrite bsum_bsum_mul. apply bsum_ext; intros t _.
      rewrite bsum_map. apply bsum_ext; intros fo _. rewrite fweight_cons. reflexivity.
Qed.

Theorem bu_iter_trees : forall (G : grammar S) (h X : nat),
  bu_iter G h X = bsum (trees G h X) tweight.
Proof.
  intros G h; induction h as [|h IH]; intros X; [reflexivity|].
  rewrite (bsum_trees_S G h X tweight (fun r fo => rw r * fweight fo)) by reflexivity.
  rewrite bu_iter_S. apply bsum_head_ext; intros r _ _.
  rewrite (sprod_forests (trees G h) (bu_iter G h) IH). symmetry. apply bsum_mul_l.
Qed.

Lemma forests_sound (G : grammar S) (tr : nat -> list (tree S)) (h : nat) :
  (forall Y t, In t (tr Y) -> twf S G (N Y) t /\ theight t <= h) ->
  forall body fo, In fo (forests_of tr body) -> fwf S G body fo /\ fheight fo <= h.
Proof.
  intros Htr. induction body as [|s rest IHb]; intros fo Hin.
  - simpl in Hin. destruct Hin as [Hin|[]]. subst fo. split; [constructor|apply Nat.le_0_l].
  - destruct s as [a|Y]; simpl in Hin.
    + apply in_map_iff in Hin. destruct Hin as [fo' [Hfo Hin]]. subst fo.
      apply IHb in Hin. destruct Hin as [Hw Hh].
      split; [constructor; [constructor|exact Hw]|exact Hh].
    + apply in_flat_map in Hin. destruct Hin as [t [Ht Hin]].
      apply in_map_iff in Hin. destruct Hin as [fo' [Hfo Hin]]. subst fo.
      apply Htr in Ht. apply IHb in Hin. destruct Ht as [Htw Hth]. destruct Hin as [Hw Hh].
      split; [constructor; assumption|rewrite fheight_cons; lia].
Qed.

Theorem trees_sound : forall (G : grammar S) h X t,
  In t (trees G h X) -> twf S G (N X) t /\ theight t <= h.
Proof.
  intros G h; induction h as [|h IH]; intros X t Hin; [contradiction|].
  cbn [trees] in Hin. apply in_flat_map in Hin. destruct Hin as [[i r] [Hir Hin]].
  simpl fst in Hin; simpl snd in Hin.
  destruct (Nat.eqb (rhead r) X) eqn:E; [|contradiction].
  apply Nat.eqb_eq in E. subst X.
  apply in_map_iff in Hin. destruct Hin as [k [Hk Hin]]. subst t.
  apply (forests_sound G (trees G h) h IH) in Hin. destruct Hin as [Hw Hh].
  apply in_combine_seq_nth in Hir. destruct Hir as [j [Hi Hn]]. simpl in Hi. subst j.
  split; [constructor; assumption|rewrite theight_node; lia].
Qed.

Lemma complete_mut (G : grammar S) :
  (forall s t, twf S G s t -> forall h, theight t <= h ->
     match s with N X => In t (trees G h X) | T a => t = Leaf a end) /\
  (forall body fo, fwf S G body fo -> forall h, fheight fo <= h ->
     In fo (forests_of (trees G h) body)).
Proof.
  apply twf_fwf_ind.
  - intros a h _. reflexivity.
  - intros i r kids Hn _ IHk h Hh. rewrite theight_node in Hh. destruct h as [|h]; [lia|].
    cbn [trees]. apply in_flat_map. exists (i, r). split.
    + apply (nth_in_combine_seq G O i r Hn).
    + simpl fst; simpl snd. rewrite Nat.eqb_refl. apply in_map. apply IHk. lia.
  - intros h _. left; reflexivity.
  - intros s body t f _ IHt _ IHf h Hh. rewrite fheight_cons in Hh.
    specialize (IHt h). specialize (IHf h). destruct s as [a|X]; simpl.
    + rewrite IHt by lia. apply in_map. apply IHf; lia.
    + apply in_flat_map. exists t. split; [apply IHt; lia|apply in_map; apply IHf; lia].
Qed.

Theorem trees_complete : forall (G : grammar S) h X t,
  twf S G (N X) t -> theight t <= h -> In t (trees G h X).
Proof.
  intros G h X t Hw Hh. exact (proj1 (complete_mut G) (N X) t Hw h Hh).
Qed.

Lemma forests_NoDup (tr : nat -> list (tree S)) :
  (forall Y, NoDup (tr Y)) -> forall body, NoDup (forests_of tr body).
Proof.
  intros Htr; induction body as [|s rest IH]; simpl.
  - constructor; [intros []|constructor].
  - destruct s as [a|Y].
    + apply FinFun.Injective_map_NoDup; [|exact IH]. intros x y H; congruence.
    + apply NoDup_flat_map_disj.
      * apply Htr.
      * intros t _. apply FinFun.Injective_map_NoDup; [|exact IH]. intros x y H; congruence.
      * intros t1 t2 x _ _ H1 H2. apply in_map_iff in H1. apply in_map_iff in H2.
        destruct H1 as [f1 [H1 _]]. destruct H2 as [f2 [H2 _]]. congruence.
Qed.

Theorem trees_NoDup : forall (G : grammar S) h X, NoDup (trees G h X).
Proof.
  intros G h; induction h as [|h IH]; intros X; [constructor|].
  cbn [trees]. apply NoDup_flat_map_disj.
  - unfold indexed. apply NoDup_combine_l. apply seq_NoDup.
  - intros [i r] _. simpl fst; simpl snd. destruct (Nat.eqb (rhead r) X); [|constructor].
    apply FinFun.Injective_map_NoDup; [|apply forests_NoDup; exact IH]. intros x y H; congruence.
  - intros [i r] [i' r'] x _ _ H1 H2. simpl fst in H1, H2; simpl snd in H1, H2.
    destruct (Nat.eqb (rhead r) X); [|contradiction].
    destruct (Nat.eqb (rhead r') X); [|contradiction].
    apply in_map_iff in H1. apply in_map_iff in H2.
    destruct H1 as [k [H1 _]]. destruct H2 as [k' [H2 _]]. congruence.
Qed.

End Trees.

Lemma bool_trees_filter (G : grammar BoolSR) (X : nat) (P : tree BoolSR -> bool) :
  (exists h, bsum (filter P (trees G h X)) tweight = true) <->
  (exists t, twf BoolSR G (N X) t /\ P t = true /\ tweight t = true).
Proof.
  split.
  - intros [h Hh]. apply bool_bsum_true in Hh. destruct Hh as [t [Hin Hw]].
    apply filter_In in Hin. destruct Hin as [Hin Hp].
    exists t. split; [exact (proj1 (trees_sound BoolSR G h X t Hin))|split; assumption].
  - intros [t [Hwf [Hp Hw]]]. exists (theight t).
    apply bool_bsum_true. exists t. split; [|exact Hw].
    apply filter_In. split; [|exact Hp]. apply trees_complete; [exact Hwf|apply le_n].
Qed.

Print Assumptions W_trees.
Print Assumptions bu_iter_trees.
Print Assumptions trees_sound.
Print Assumptions trees_complete.
Print Assumptions trees_NoDup.
