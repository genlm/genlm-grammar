(* Local normalisation (cfglm.locally_normalize) at the level of STRINGS: with the
   regenerated expression Gen_Exprs.norm_factor plugged in, the derivation sum of every
   string xs from every nonterminal X in the normalised grammar is the original one
   divided by Z X, at every height; and so is the Kleene iterate (the total weight).
   Over any field. *)
From Coq Require Import List QArith Qcanon.
From GV.lib Require Import Semiring BigSum.
From GV.model Require Import Cfg Agenda Norm.
From GV.gen Require Import Gen_Exprs.
From GV.proofs Require Import CfgTrees NormProofs.
Import ListNotations.
Local Open Scope nat_scope.
Local Open Scope sr_scope.

(* scaling the nonterminal values by Z scales a body value by the product of Z over the
   body; both body lemmas only need a semiring *)
Section BodyScaling.
Variable S : SR.
Add Ring LSRing : (sth S).

Lemma Wb_scaled (Z : sym -> S) (f' f : nat -> list nat -> S) :
  (forall a, Z (T a) = 1) ->
  (forall Y u, f' Y u * Z (N Y) = f Y u) ->
  forall body xs, Wb f' body xs * sprod (map Z body) = Wb f body xs.
Proof.
  intros HT Hf. induction body as [|s rest IH]; intros xs.
  - apply smul_1_r.
  - cbn [map sprod]. destruct s as [a|Y].
    + rewrite HT, smul_1_l. destruct xs as [|b xs']; [apply smul_0_l|].
      rewrite !Wb_T_cons. destruct (Nat.eqb a b); [apply IH|apply smul_0_l].
    + rewrite !Wb_N_unfold, <- bsum_mul_r.
      apply bsum_ext. intros p _.
      rewrite <- (IH (snd p)), <- (Hf Y (fst p)). ring.
Qed.

Lemma sprod_scaled (Z : sym -> S) (V' V : nat -> S) :
  (forall a, Z (T a) = 1) ->
  (forall Y, V' Y * Z (N Y) = V Y) ->
  forall body, sprod (map (sval V') body) * sprod (map Z body) = sprod (map (sval V) body).
Proof.
  intros HT HV. induction body as [|s rest IH]; [apply smul_1_r|].
  cbn [map sprod]. rewrite <- IH.
  destruct s as [a|Y]; cbn [sval]; [rewrite HT|rewrite <- (HV Y)]; ring.
Qed.

End BodyScaling.

Section LnormStrings.
Variable F : FR.
Add Field LSField : (fth F).

Theorem lnorm_W_proportional : forall (Z : sym -> F) (G : grammar F),
  (forall a, Z (T a) = 1) ->
  (forall Y, Z (N Y) = 0 -> forall h u, W G h Y u = 0) ->
  forall h X xs, W (lnorm (norm_factor F) Z G) h X xs * Z (N X) = W G h X xs.
Proof.
  intros Z G HT Hzero. induction h as [|h IH]; intros X xs.
  - apply smul_0_l.
  - destruct (seqb_reflect F (Z (N X)) 0) as [E|E].
    + rewrite (Hzero X E), E. apply smul_0_r.
    + rewrite !W_S.
      apply (lnorm_step F Z G X
               (fun body => Wb (W (lnorm (norm_factor F) Z G) h) body xs)
               (fun body => Wb (W G h) body xs) E).
      intros body. apply (Wb_scaled F); [exact HT|exact IH].
Qed.

Corollary lnorm_W_divided : forall (Z : sym -> F) (G : grammar F),
  (forall a, Z (T a) = 1) ->
  (forall Y, Z (N Y) = 0 -> forall h u, W G h Y u = 0) ->
  forall h X xs, Z (N X) <> 0 ->
  W (lnorm (norm_factor F) Z G) h X xs = fdiv F (W G h X xs) (Z (N X)).
Proof.
  intros Z G HT Hzero h X xs HX.
  rewrite <- (lnorm_W_proportional Z G HT Hzero h X xs). field. exact HX.
Qed.

Theorem lnorm_total_proportional : forall (Z : sym -> F) (G : grammar F),
  (forall a, Z (T a) = 1) ->
  (forall Y, Z (N Y) = 0 -> forall h, bu_iter G h Y = 0) ->
  forall h X, bu_iter (lnorm (norm_factor F) Z G) h X * Z (N X) = bu_iter G h X.
Proof.
  intros Z G HT Hzero. induction h as [|h IH]; intros X.
  - apply smul_0_l.
  - destruct (seqb_reflect F (Z (N X)) 0) as [E|E].
    + rewrite (Hzero X E), E. apply smul_0_r.
    + rewrite !bu_iter_S.
      apply (lnorm_step F Z G X
               (fun body => sprod (map (sval (bu_iter (lnorm (norm_factor F) Z G) h)) body))
               (fun body => sprod (map (sval (bu_iter G h)) body)) E).
      intros body. apply (sprod_scaled F); [exact HT|exact IH].
Qed.

Corollary lnorm_total_divided : forall (Z : sym -> F) (G : grammar F),
  (forall a, Z (T a) = 1) ->
  (forall Y, Z (N Y) = 0 -> forall h, bu_iter G h Y = 0) ->
  forall h X, Z (N X) <> 0 ->
  bu_iter (lnorm (norm_factor F) Z G) h X = fdiv F (bu_iter G h X) (Z (N X)).
Proof.
  intros Z G HT Hzero h X HX.
  rewrite <- (lnorm_total_proportional Z G HT Hzero h X). field. exact HX.
Qed.

End LnormStrings.

Print Assumptions lnorm_W_proportional.
Print Assumptions lnorm_W_divided.
Print Assumptions lnorm_total_proportional.
Print Assumptions lnorm_total_divided.

Local Close Scope sr_scope.

Definition ls_G : grammar QcFR :=
  [ (mkq 1 2, 0, [T 1; N 1]); (mkq 1 3, 1, [T 0]); (mkq 1 5, 1, []) ].

(* the true total weights: Z 1 = 1/3 + 1/5 = 8/15, Z 0 = 1/2 * 8/15 = 4/15 *)
Definition ls_Z (s : sym) : QcFR :=
  match s with
  | T _ => mkq 1 1
  | N 0 => mkq 4 15
  | N 1 => mkq 8 15
  | N _ => mkq 1 1
  end.

Ltac ls_qc := apply Qc_is_canon; vm_compute; reflexivity.

Example lnorm_strings_instance :
  W (lnorm (norm_factor QcFR) ls_Z ls_G) 3 0 [1; 0] = mkq 5 8 /\
  W ls_G 3 0 [1; 0] = mkq 1 6 /\
  fdiv QcFR (mkq 1 6) (mkq 4 15) = mkq 5 8 /\
  bu_iter ls_G 3 0 = mkq 4 15 /\
  bu_iter ls_G 3 1 = mkq 8 15 /\
  bu_iter (lnorm (norm_factor QcFR) ls_Z ls_G) 3 0 = mkq 1 1 /\
  bu_iter (lnorm (norm_factor QcFR) ls_Z ls_G) 3 1 = mkq 1 1.
Proof. repeat split; ls_qc. Qed.

(* the same instance through the general theorems: both zero-hypotheses hold vacuously,
   as ls_Z vanishes nowhere *)
Lemma ls_Z_nonzero : forall Y, ls_Z (N Y) <> (@s0 QcFR).
Proof.
  intros Y H. apply (f_equal (fun q : Qc => Qnum (this q))) in H.
  destruct Y as [|[|Y]]; vm_compute in H; discriminate.
Qed.

Example lnorm_strings_instance_thm :
  W (lnorm (norm_factor QcFR) ls_Z ls_G) 3 0 [1; 0] = fdiv QcFR (W ls_G 3 0 [1; 0]) (ls_Z (N 0)) /\
  smul (bu_iter (lnorm (norm_factor QcFR) ls_Z ls_G) 3 0) (ls_Z (N 0)) = bu_iter ls_G 3 0.
Proof.
  split.
  - apply (lnorm_W_divided QcFR ls_Z ls_G).
    + intros a. reflexivity.
    + intros Y HY. exfalso. exact (ls_Z_nonzero Y HY).
    + apply ls_Z_nonzero.
  - apply (lnorm_total_proportional QcFR ls_Z ls_G).
    + intros a. reflexivity.
    + intros Y HY. exfalso. exact (ls_Z_nonzero Y HY).
Qed.
