(* Saturation of a list of naturals under guarded clauses, by repeated passes over the clause list: the shape
   shared by the searches of the models (generating symbols, the two grammar reachabilities, accessible states).
   A clause [a] asks that, whenever [guard R a] holds, the targets [tgt a] belong to R; a step inserts the
   missing targets in front of R.  Three facts carry everything: a pass only pushes new elements in front; a
   pass that adds nothing leaves a list closed under every clause; and a duplicate-free list inside a fixed
   bound B cannot grow more than |B| times, so |B|+1 passes contain one that adds nothing. *)
From Coq Require Import List PeanoNat.
Import ListNotations.

Lemma mem_spec (x : nat) (l : list nat) : existsb (Nat.eqb x) l = true <-> In x l.
Proof.
  rewrite existsb_exists. split.
  - intros [y [Hy E]]. apply Nat.eqb_eq in E. subst y. exact Hy.
  - intros H. exists x. split; [exact H|apply Nat.eqb_refl].
Qed.

Lemma mem_false (x : nat) (l : list nat) : existsb (Nat.eqb x) l = false <-> ~ In x l.
Proof.
  rewrite <- mem_spec. destruct (existsb (Nat.eqb x) l); split; intros H;
    [discriminate H|destruct (H eq_refl)|discriminate|reflexivity].
Qed.

Lemma fold_left_ext {A B} (f g : A -> B -> A) :
  (forall a b, f a b = g a b) -> forall l a, fold_left f l a = fold_left g l a.
Proof. intros H l. induction l as [|b t IH]; intros a; simpl; [reflexivity|]. rewrite H. apply IH. Qed.

Lemma fold_left_inv {A B} (P : A -> Prop) (f : A -> B -> A) (l : list B) :
  (forall a b, In b l -> P a -> P (f a b)) -> forall a, P a -> P (fold_left f l a).
Proof.
  induction l as [|b t IH]; intros H a Ha; simpl; [exact Ha|].
  apply IH; [intros a' b' Hb'; apply H; right; exact Hb'|apply H; [left; reflexivity|exact Ha]].
Qed.

Lemma fold_left_id {A B} (f : A -> B -> A) (l : list B) (a : A) :
  (forall b, In b l -> f a b = a) -> fold_left f l a = a.
Proof.
  induction l as [|b t IH]; intros H; simpl; [reflexivity|].
  rewrite (H b (or_introl eq_refl)). apply IH. intros b' Hb'. apply H. right; exact Hb'.
Qed.

(* R' is R with new elements pushed in front *)
Definition extends (R R' : list nat) : Prop := exists p, R' = p ++ R.

Lemma extends_refl R : extends R R.
Proof. exists []. reflexivity. Qed.
Lemma extends_trans R1 R2 R3 : extends R1 R2 -> extends R2 R3 -> extends R1 R3.
Proof. intros [p ->] [q ->]. exists (q ++ p). apply app_assoc. Qed.
Lemma extends_length R R' : extends R R' -> length R <= length R'.
Proof. intros [p ->]. rewrite app_length. apply Nat.le_add_l. Qed.
Lemma extends_same R R' : extends R R' -> length R' = length R -> R' = R.
Proof.
  intros [[|x p] ->] H; [reflexivity|]. simpl in H.
  destruct (Nat.nle_succ_diag_l (length R)). rewrite <- H at 2. apply le_n_S, extends_length. exists p. reflexivity.
Qed.
Lemma extends_incl R R' : extends R R' -> incl R R'.
Proof. intros [p ->]. apply incl_appr, incl_refl. Qed.

Section FoldExtends.
Context {A : Type} (f : list nat -> A -> list nat) (f_ext : forall R a, extends R (f R a)).

Lemma fold_extends l : forall R, extends R (fold_left f l R).
Proof.
  induction l as [|a t IH]; intros R; simpl; [apply extends_refl|].
  eapply extends_trans; [apply f_ext|apply IH].
Qed.

(* a fold that adds nothing: every step was the identity *)
Lemma fold_same l : forall R, length (fold_left f l R) = length R -> forall a, In a l -> f R a = R.
Proof.
  induction l as [|b t IH]; intros R H a Ha; [destruct Ha|]. simpl in H.
  assert (E : f R b = R).
  { apply extends_same; [apply f_ext|]. apply Nat.le_antisymm; [|apply extends_length, f_ext].
    rewrite <- H. apply extends_length, fold_extends. }
  rewrite E in H. destruct Ha as [->|Ha]; [exact E|exact (IH R H a Ha)].
Qed.
End FoldExtends.

Definition add1 (R : list nat) (x : nat) : list nat := if existsb (Nat.eqb x) R then R else x :: R.

Lemma add1_extends R x : extends R (add1 R x).
Proof. unfold add1. destruct (existsb (Nat.eqb x) R); [apply extends_refl|exists [x]; reflexivity]. Qed.

Lemma add1_In R x y : In y (add1 R x) <-> In y R \/ x = y.
Proof.
  unfold add1. destruct (existsb (Nat.eqb x) R) eqn:E; [|apply or_comm].
  apply mem_spec in E. split; [intros H; left; exact H|intros [H|<-]; [exact H|exact E]].
Qed.

Lemma add1_id R x : add1 R x = R <-> In x R.
Proof.
  unfold add1. destruct (existsb (Nat.eqb x) R) eqn:E.
  - apply mem_spec in E. tauto.
  - apply mem_false in E. split; [|tauto]. intros H. apply (f_equal (@length _)) in H. destruct (Nat.neq_succ_diag_l _ H).
Qed.

Lemma add1_NoDup R x : NoDup R -> NoDup (add1 R x).
Proof.
  intros H. unfold add1. destruct (existsb (Nat.eqb x) R) eqn:E; [exact H|].
  constructor; [apply mem_false; exact E|exact H].
Qed.

Lemma adds_In xs : forall R y, In y (fold_left add1 xs R) <-> In y R \/ In y xs.
Proof.
  induction xs as [|x t IH]; intros R y; simpl; [tauto|]. rewrite IH, add1_In. apply or_assoc.
Qed.

Lemma adds_NoDup xs R : NoDup R -> NoDup (fold_left add1 xs R).
Proof. apply fold_left_inv. intros R' x _. apply add1_NoDup. Qed.

Lemma adds_id xs R : fold_left add1 xs R = R <-> incl xs R.
Proof.
  split.
  - intros H x Hx. apply add1_id. apply (fold_same add1 add1_extends xs R); [rewrite H; reflexivity|exact Hx].
  - intros H. apply fold_left_id. intros x Hx. apply add1_id, H, Hx.
Qed.

Section Saturate.
Context {A : Type} (guard : list nat -> A -> bool) (tgt : A -> list nat) (l : list A).

Definition sat_step (R : list nat) (a : A) : list nat := if guard R a then fold_left add1 (tgt a) R else R.
Definition sat_pass (R : list nat) : list nat := fold_left sat_step l R.
Fixpoint sat_iter (n : nat) (R : list nat) : list nat :=
  match n with O => R | S n' => sat_iter n' (sat_pass R) end.

Definition sat_closed (R : list nat) : Prop := forall a, In a l -> guard R a = true -> incl (tgt a) R.

(* any iteration written with its own pass function is this one *)
Lemma sat_iter_unique (pass : list nat -> list nat) (iter : nat -> list nat -> list nat) :
  (forall R, pass R = sat_pass R) -> (forall R, iter O R = R) -> (forall n R, iter (S n) R = iter n (pass R)) ->
  forall n R, iter n R = sat_iter n R.
Proof.
  intros Hp H0 HS. induction n as [|n IH]; intros R; [apply H0|]. rewrite HS, Hp. apply IH.
Qed.

Lemma sat_step_In R a y : In y (sat_step R a) <-> In y R \/ (guard R a = true /\ In y (tgt a)).
Proof.
  unfold sat_step. destruct (guard R a); [rewrite adds_In|]; split.
  - intros [H|H]; [left; exact H|right; split; [reflexivity|exact H]].
  - intros [H|[_ H]]; [left; exact H|right; exact H].
  - intros H. left; exact H.
  - intros [H|[H _]]; [exact H|discriminate H].
Qed.

Lemma sat_step_extends R a : extends R (sat_step R a).
Proof. unfold sat_step. destruct (guard R a); [apply fold_extends, add1_extends|apply extends_refl]. Qed.

Lemma sat_step_id R a : sat_step R a = R <-> (guard R a = true -> incl (tgt a) R).
Proof.
  unfold sat_step. destruct (guard R a); [rewrite adds_id|]; split.
  - intros H _. exact H.
  - intros H. exact (H eq_refl).
  - intros _ H. discriminate H.
  - reflexivity.
Qed.

Lemma sat_pass_extends R : extends R (sat_pass R).
Proof. apply fold_extends, sat_step_extends. Qed.

Lemma sat_pass_closed R : sat_pass R = R <-> sat_closed R.
Proof.
  split.
  - intros H a Ha. apply sat_step_id, (fold_same sat_step sat_step_extends l R); [|exact Ha].
    unfold sat_pass in H. rewrite H. reflexivity.
  - intros H. apply fold_left_id. intros a Ha. apply sat_step_id, H, Ha.
Qed.

Lemma sat_iter_inv (P : list nat -> Prop) :
  (forall R a, In a l -> P R -> P (sat_step R a)) -> forall n R, P R -> P (sat_iter n R).
Proof.
  intros H. induction n as [|n IH]; intros R HR; simpl; [exact HR|]. apply IH. exact (fold_left_inv P sat_step l H R HR).
Qed.

Lemma sat_iter_extends n R : extends R (sat_iter n R).
Proof.
  apply (sat_iter_inv (extends R)); [|apply extends_refl].
  intros R' a _ H. eapply extends_trans; [exact H|apply sat_step_extends].
Qed.

Lemma sat_iter_closed_id n R : sat_closed R -> sat_iter n R = R.
Proof. intros H. induction n as [|n IH]; simpl; [reflexivity|]. rewrite (proj2 (sat_pass_closed R) H). exact IH. Qed.

(* every element was put there by a clause whose guard held *)
Lemma sat_iter_sound (Q : nat -> Prop) :
  (forall R a x, In a l -> (forall y, In y R -> Q y) -> guard R a = true -> In x (tgt a) -> Q x) ->
  forall n R, (forall y, In y R -> Q y) -> forall y, In y (sat_iter n R) -> Q y.
Proof.
  intros H. apply (sat_iter_inv (fun R => forall y, In y R -> Q y)).
  intros R a Ha HR y Hy. apply sat_step_In in Hy. destruct Hy as [Hy|[Hg Hy]]; [apply HR, Hy|exact (H R a y Ha HR Hg Hy)].
Qed.

Lemma sat_iter_NoDup n R : NoDup R -> NoDup (sat_iter n R).
Proof.
  apply sat_iter_inv. intros R' a _ H. unfold sat_step. destruct (guard R' a); [apply adds_NoDup, H|exact H].
Qed.

(* B bounds the search: it holds the targets of every clause that can fire inside it *)
Definition sat_bound (B : list nat) : Prop :=
  forall R a, In a l -> incl R B -> guard R a = true -> incl (tgt a) B.

Lemma sat_iter_bound B n R : sat_bound B -> incl R B -> incl (sat_iter n R) B.
Proof.
  intros HB. apply (sat_iter_inv (fun R => incl R B)). intros R' a Ha H y Hy.
  apply sat_step_In in Hy. destruct Hy as [Hy|[Hg Hy]]; [apply H, Hy|exact (HB R' a Ha H Hg y Hy)].
Qed.

(* pigeonhole: the list is duplicate-free and stays inside B, so one of |B|+1 passes adds nothing *)
Theorem sat_iter_closed B : sat_bound B ->
  forall n R, NoDup R -> incl R B -> length B < n + length R -> sat_closed (sat_iter n R).
Proof.
  intros HB. induction n as [|n IH]; intros R Hnd Hin Hlen.
  - destruct (Nat.lt_irrefl _ (Nat.le_lt_trans _ _ _ (NoDup_incl_length Hnd Hin) Hlen)).
  - (* the pass makes the list longer, and one unit of fuel pays for it, or leaves it as it is, closed *)
    simpl. pose proof (extends_length _ _ (sat_pass_extends R)) as L. apply Nat.lt_eq_cases in L. destruct L as [L|E].
    + apply IH; [exact (sat_iter_NoDup 1 R Hnd)|exact (sat_iter_bound B 1 R HB Hin)|].
      apply (Nat.lt_le_trans _ _ _ Hlen). simpl. rewrite <- Nat.add_succ_r. apply Nat.add_le_mono_l, L.
    + assert (Hc : sat_closed R) by (apply sat_pass_closed, extends_same; [apply sat_pass_extends|symmetry; exact E]).
      rewrite (proj2 (sat_pass_closed R) Hc), sat_iter_closed_id; exact Hc.
Qed.

End Saturate.
