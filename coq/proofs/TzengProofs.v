(* Correctness of the equivalence test for automata over a field (model/Tzeng.v):
   - a returned counterexample (w, v) really has v = d . M_w eta <> 0, and w is over the alphabet;
   - the answer "no counterexample" (without running out of fuel) implies d . M_w eta = 0 for
     EVERY word w over the alphabet.
   Both hold over any field and for any fuel.  Apart from them: over a formally real field (the
   rationals are one) the basis kept by the search stays orthogonal with non-zero members.  That is
   what would bound its size by |idx| and so the fuel that suffices; the bound itself is not proved
   here, and no theorem of this file depends on the orthogonality lemmas. *)
From Coq Require Import List Arith Field.
From GV.lib Require Import Semiring BigSum.
From GV.model Require Import Tzeng.
Import ListNotations.
Local Open Scope sr_scope.

Lemma snoc_forall {A} (P : A -> Prop) (l : list A) (x : A) :
  (forall a, In a l -> P a) -> P x -> forall a, In a (l ++ [x]) -> P a.
Proof. intros Hl Hx a Ha. apply in_app_or in Ha as [Ha|[<-|[]]]; [apply Hl, Ha|exact Hx]. Qed.

Section TzengProofs.
Variable F : FR.
Variable idx : list nat.
Add Field TzField : (fth F).

Definition veq (u v : nat -> F) : Prop := forall i, In i idx -> u i = v i.

Lemma veq_refl u : veq u u.
Proof. intros i _; reflexivity. Qed.
Lemma veq_sym u v : veq u v -> veq v u.
Proof. intros H i Hi; symmetry; apply H, Hi. Qed.
Lemma veq_trans u v w : veq u v -> veq v w -> veq u w.
Proof. intros H1 H2 i Hi; rewrite (H1 i Hi); apply H2, Hi. Qed.

Lemma lookup_map (u : nat -> F) (l : list nat) i :
  In i l -> lookup (map (fun i => (i, u i)) l) i = u i.
Proof.
  induction l as [|k t IH]; simpl; [tauto|]. intros [Hk|Hi].
  - subst k. rewrite Nat.eqb_refl. reflexivity.
  - destruct (Nat.eqb i k) eqn:E.
    + apply Nat.eqb_eq in E; subst; reflexivity.
    + apply IH, Hi.
Qed.

Lemma freeze_eq : forall (u : nat -> F) i, In i idx -> freeze idx u i = u i.
Proof. intros u i Hi. unfold freeze. apply lookup_map, Hi. Qed.

Lemma dot_ext (u u' v v' : nat -> F) : veq u u' -> veq v v' -> dot idx u v = dot idx u' v'.
Proof. intros Hu Hv. unfold dot. apply bsum_ext. intros i Hi. rewrite (Hu i Hi), (Hv i Hi). reflexivity. Qed.

Lemma dot_ext_r (d v v' : nat -> F) : veq v v' -> dot idx d v = dot idx d v'.
Proof. apply dot_ext, veq_refl. Qed.

Lemma mv_ext (M : nat -> nat -> F) (v v' : nat -> F) : veq v v' -> forall i, mv idx M v i = mv idx M v' i.
Proof. intros Hv i. exact (dot_ext_r (M i) v v' Hv). Qed.

Lemma dot_sym (u v : nat -> F) : dot idx u v = dot idx v u.
Proof. unfold dot. apply bsum_ext. intros i _. apply (smul_comm F). Qed.

Lemma dot_zero_r (u : nat -> F) : dot idx u vzero = 0.
Proof. unfold dot, vzero. apply bsum_zero. intros i _. apply smul_0_r. Qed.

Lemma dot_add_r (d u v : nat -> F) : dot idx d (fun i => u i + v i) = dot idx d u + dot idx d v.
Proof. unfold dot. rewrite <- bsum_add. apply bsum_ext. intros; ring. Qed.

Lemma dot_scale_r (d u : nat -> F) c : dot idx d (vscale c u) = c * dot idx d u.
Proof. unfold dot, vscale. rewrite <- bsum_mul_l. apply bsum_ext. intros; ring. Qed.

Lemma dot_sub_r (d u v : nat -> F) : dot idx d (vsub u v) = fsub F (dot idx d u) (dot idx d v).
Proof.
  rewrite (dot_ext_r d _ (fun i => u i + vscale (fopp F 1) v i)) by (intros i _; unfold vsub, vscale; ring).
  rewrite dot_add_r, dot_scale_r. ring.
Qed.

Lemma dot_zero_l (u : nat -> F) : dot idx vzero u = 0.
Proof. rewrite dot_sym. apply dot_zero_r. Qed.
Lemma dot_add_l (d u v : nat -> F) : dot idx (fun i => u i + v i) d = dot idx u d + dot idx v d.
Proof. rewrite !(dot_sym _ d). apply dot_add_r. Qed.
Lemma dot_scale_l (d u : nat -> F) c : dot idx (vscale c u) d = c * dot idx u d.
Proof. rewrite !(dot_sym _ d). apply dot_scale_r. Qed.
Lemma dot_sub_l (d u v : nat -> F) : dot idx (vsub u v) d = fsub F (dot idx u d) (dot idx v d).
Proof. rewrite !(dot_sym _ d). apply dot_sub_r. Qed.

(* the shape in which [span] builds its members *)
Lemma dot_lin (d u v : nat -> F) c : dot idx d (fun i => c * u i + v i) = c * dot idx d u + dot idx d v.
Proof. rewrite <- dot_scale_r. apply (dot_add_r d (vscale c u) v). Qed.
Lemma mv_sub (M : nat -> nat -> F) (u v : nat -> F) i :
  mv idx M (vsub u v) i = fsub F (mv idx M u i) (mv idx M v i).
Proof. exact (dot_sub_r (M i) u v). Qed.

Lemma is_zero_true (u : nat -> F) : is_zero idx u = true -> veq u vzero.
Proof.
  unfold is_zero. rewrite forallb_forall. intros H i Hi. specialize (H i Hi).
  destruct (seqb_reflect F (u i) 0) as [E|]; [exact E|discriminate H].
Qed.

Lemma is_zero_false (u : nat -> F) : is_zero idx u = false -> exists i, In i idx /\ u i <> 0.
Proof.
  unfold is_zero. generalize idx as l. induction l as [|k t IH]; simpl; [discriminate|].
  destruct (seqb_reflect F (u k) 0) as [E|E]; simpl.
  - intros H. destruct (IH H) as [i [Hi Hne]]. exists i; split; [right; exact Hi|exact Hne].
  - intros _. exists k; split; [left; reflexivity|exact E].
Qed.

Section Sound.
Variable M : nat -> nat -> nat -> F.
Variables d eta : nat -> F.
Variable alphabet : list nat.

(* a work-list item (w, V) carries V = M_w eta with w over the alphabet *)
Definition good (p : list nat * (nat -> F)) : Prop :=
  veq (snd p) (act idx M (fst p) eta) /\ incl (fst p) alphabet.

Definition good_cex (c : list nat * F) : Prop :=
  snd c = dot idx d (act idx M (fst c) eta) /\ snd c <> 0 /\ incl (fst c) alphabet.

Lemma good_step w V a : good (w, V) -> In a alphabet -> good (a :: w, freeze idx (mv idx (M a) V)).
Proof.
  intros [HV Hw] Ha. split; simpl.
  - intros i Hi. rewrite (freeze_eq _ i Hi). apply mv_ext, HV.
  - apply incl_cons; assumption.
Qed.

Lemma expand_good : forall al w V work basis,
  incl al alphabet -> good (w, V) -> Forall good work ->
  match expand idx M d al w V work basis with
  | inl c => good_cex c
  | inr (work', _) => Forall good work'
  end.
Proof.
  induction al as [|a rest IH]; intros w V work basis Hal HV Hwork; simpl; [exact Hwork|].
  apply incl_cons_inv in Hal as [Ha Hrest].
  pose proof (good_step w V a HV Ha) as Hu.
  destruct (seqb_reflect F (dot idx d (freeze idx (mv idx (M a) V))) 0) as [E|E]; simpl.
  - destruct (is_zero idx (proj idx (freeze idx (mv idx (M a) V)) basis)); apply IH; try assumption.
    constructor; assumption.
  - destruct Hu as [Hu Hw]. split; [apply dot_ext_r, Hu|split; assumption].
Qed.

Lemma search_good : forall fuel work basis c,
  Forall good work -> search idx M d alphabet fuel work basis = Some (Some c) -> good_cex c.
Proof.
  induction fuel as [|f IH]; intros work basis c Hwork; simpl; [discriminate|].
  destruct work as [|[w V] rest]; [discriminate|].
  apply Forall_cons_iff in Hwork as [HV Hrest].
  pose proof (expand_good alphabet w V rest basis (incl_refl _) HV Hrest) as HE.
  destruct (expand idx M d alphabet w V rest basis) as [c'|[work' basis']].
  - intros [= <-]. exact HE.
  - apply IH, HE.
Qed.

Lemma counterexample_good : forall fuel c,
  counterexample idx M d eta alphabet fuel = Some (Some c) -> good_cex c.
Proof.
  intros fuel c. unfold counterexample.
  destruct (seqb_reflect F (dot idx d eta) 0) as [E|E]; simpl.
  - destruct (is_zero idx eta); [discriminate|].
    apply search_good. constructor; [|constructor].
    split; [exact (freeze_eq eta)|intros a []].
  - intros [= <-]. split; [reflexivity|]. split; [exact E|intros a []].
Qed.
End Sound.

Theorem cex_sound : forall (M : nat -> nat -> nat -> F) (d eta : nat -> F) alphabet fuel w v,
  counterexample idx M d eta alphabet fuel = Some (Some (w, v)) ->
  v = dot idx d (act idx M w eta) /\ v <> 0.
Proof.
  intros M d eta alphabet fuel w v H.
  destruct (counterexample_good M d eta alphabet fuel (w, v) H) as [H1 [H2 _]].
  split; assumption.
Qed.

Theorem cex_word_over_alphabet : forall (M : nat -> nat -> nat -> F) (d eta : nat -> F) alphabet fuel w v,
  counterexample idx M d eta alphabet fuel = Some (Some (w, v)) ->
  forall a, In a w -> In a alphabet.
Proof.
  intros M d eta alphabet fuel w v H.
  destruct (counterexample_good M d eta alphabet fuel (w, v) H) as [_ [_ H3]]. exact H3.
Qed.

(* linear span of a set of vectors (everything up to equality on idx) *)
Inductive span (P : (nat -> F) -> Prop) : (nat -> F) -> Prop :=
| span_zero : forall v, veq v vzero -> span P v
| span_add : forall v c q z, P q -> span P z -> veq v (fun i => c * q i + z i) -> span P v.

Lemma span_veq P v v' : span P v -> veq v' v -> span P v'.
Proof.
  intros H Hv. destruct H as [v Hz|v c q z Hq Hs Hz].
  - apply span_zero. eapply veq_trans; eassumption.
  - eapply span_add; [exact Hq|exact Hs|]. eapply veq_trans; eassumption.
Qed.

Lemma span_gen (P : (nat -> F) -> Prop) q : P q -> span P q.
Proof.
  intros Hq. apply (span_add P q 1 q vzero Hq).
  - apply span_zero, veq_refl.
  - intros i _. unfold vzero. ring.
Qed.

Lemma span_lin P u v w c : span P u -> span P v -> veq w (fun i => c * u i + v i) -> span P w.
Proof.
  intros Hu. revert v w. induction Hu as [u Hz|u c' q z Hq Hs IH Hz]; intros v w Hv Hw.
  - apply (span_veq P v _ Hv). intros i Hi. rewrite (Hw i Hi), (Hz i Hi). unfold vzero. ring.
  - apply (span_add P w (c * c') q (fun i => c * z i + v i) Hq).
    + apply (IH v _ Hv), veq_refl.
    + intros i Hi. rewrite (Hw i Hi), (Hz i Hi). ring.
Qed.

Lemma span_sub P u v w : span P u -> span P v -> veq w (vsub u v) -> span P w.
Proof.
  intros Hu Hv Hw. apply (span_lin P v u w (fopp F 1) Hv Hu).
  intros i Hi. rewrite (Hw i Hi). unfold vsub. ring.
Qed.

Lemma span_bind (P P' : (nat -> F) -> Prop) v :
  (forall q, P q -> span P' q) -> span P v -> span P' v.
Proof.
  intros HP Hv. induction Hv as [v Hz|v c q z Hq Hs IH Hz].
  - apply span_zero, Hz.
  - exact (span_lin P' q z v c (HP q Hq) IH Hz).
Qed.

Lemma span_mono (P P' : (nat -> F) -> Prop) v :
  (forall q, P q -> P' q) -> span P v -> span P' v.
Proof. intros HP. apply span_bind. intros q Hq. apply span_gen, HP, Hq. Qed.

Lemma span_mv (P P' : (nat -> F) -> Prop) (Mx : nat -> nat -> F) v :
  (forall q, P q -> span P' (mv idx Mx q)) -> span P v -> span P' (mv idx Mx v).
Proof.
  intros HP Hv. induction Hv as [v Hz|v c q z Hq Hs IH Hz].
  - apply span_zero. intros i _. rewrite (mv_ext Mx v vzero Hz). apply (dot_zero_r (Mx i)).
  - apply (span_lin P' (mv idx Mx q) (mv idx Mx z) _ c (HP q Hq) IH).
    intros i _. rewrite (mv_ext Mx v _ Hz). apply (dot_lin (Mx i)).
Qed.

Lemma span_dot0 (P : (nat -> F) -> Prop) (d v : nat -> F) :
  (forall q, P q -> dot idx d q = 0) -> span P v -> dot idx d v = 0.
Proof.
  intros HP Hv. induction Hv as [v Hz|v c q z Hq Hs IH Hz].
  - rewrite (dot_ext_r d v vzero Hz). apply dot_zero_r.
  - rewrite (dot_ext_r d v _ Hz), dot_lin, (HP q Hq), IH. ring.
Qed.

(* Gram-Schmidt residual: u minus a combination of the vectors of Q, whatever the divisors [dot idx q q] are (0 included) *)
Lemma proj_residual (P : (nat -> F) -> Prop) : forall Q u,
  (forall q, In q Q -> P q) ->
  exists z, span P z /\ veq (proj idx u Q) (vsub u z).
Proof.
  induction Q as [|q Q IH]; intros u HQ.
  - exists vzero. split; [apply span_zero, veq_refl|].
    intros i _. simpl. unfold vsub, vzero. ring.
  - destruct (IH (freeze idx (proj1 idx u q)) (fun p Hp => HQ p (or_intror Hp))) as [z [Hz Hr]].
    set (c := fdiv F (dot idx q u) (dot idx q q)).
    exists (fun i => c * q i + z i). split.
    + apply (span_add P _ c q z (HQ q (or_introl eq_refl)) Hz), veq_refl.
    + intros i Hi. change (proj idx u (q :: Q)) with (proj idx (freeze idx (proj1 idx u q)) Q).
      rewrite (Hr i Hi). unfold vsub at 1. rewrite (freeze_eq _ i Hi).
      unfold proj1, vsub, vscale. fold c. ring.
Qed.

Definition inb (basis : list (nat -> F)) : (nat -> F) -> Prop := fun q => In q basis.

Lemma inb_mono (basis basis' : list (nat -> F)) v : incl basis basis' -> span (inb basis) v -> span (inb basis') v.
Proof. intros H. apply span_mono, H. Qed.

(* what the search uses of Gram-Schmidt, in terms of [span] *)
Lemma proj_span (P : (nat -> F) -> Prop) (basis : list (nat -> F)) (u : nat -> F) :
  P u -> (forall q, In q basis -> span P q) -> span P (proj idx u basis).
Proof.
  intros Hu HP. destruct (proj_residual (inb basis) basis u (fun q Hq => Hq)) as [z [Hz Hr]].
  apply (span_sub P u z); [apply span_gen, Hu|apply (span_bind (inb basis) P z HP Hz)|exact Hr].
Qed.

Lemma proj_split (basis : list (nat -> F)) (u : nat -> F) :
  exists z, span (inb basis) z /\ veq u (fun i => 1 * proj idx u basis i + z i).
Proof.
  destruct (proj_residual (inb basis) basis u (fun q Hq => Hq)) as [z [Hz Hr]].
  exists z. split; [exact Hz|]. intros i Hi. rewrite (Hr i Hi). unfold vsub. ring.
Qed.

Lemma proj_zero_span : forall (basis : list (nat -> F)) (u : nat -> F), is_zero idx (proj idx u basis) = true -> span (inb basis) u.
Proof.
  intros basis u Z. destruct (proj_split basis u) as [z [Hz Hu]].
  exact (span_lin _ _ z u 1 (span_zero _ _ (is_zero_true _ Z)) Hz Hu).
Qed.

Lemma proj_span_snoc : forall (basis : list (nat -> F)) (u : nat -> F), span (inb (basis ++ [proj idx u basis])) u.
Proof.
  intros basis u. destruct (proj_split basis u) as [z [Hz Hu]].
  apply (span_lin _ (proj idx u basis) z u 1); [| |exact Hu].
  - apply span_gen, in_elt.
  - apply (inb_mono basis); [apply incl_appl, incl_refl|exact Hz].
Qed.

(* a set of vectors that holds eta, is stable under every M_a and on which d vanishes holds every M_w eta *)
Lemma closure_complete (M : nat -> nat -> nat -> F) (d eta : nat -> F) (alphabet : list nat)
      (Sp : (nat -> F) -> Prop) :
  Sp eta ->
  (forall a v, In a alphabet -> Sp v -> Sp (mv idx (M a) v)) ->
  (forall v, Sp v -> dot idx d v = 0) ->
  forall w, (forall a, In a w -> In a alphabet) -> dot idx d (act idx M w eta) = 0.
Proof.
  intros Heta Hclo Hd w Hw. apply Hd.
  induction w as [|a t IH]; simpl; [exact Heta|].
  apply Hclo; [apply Hw; left; reflexivity|]. apply IH. intros x Hx; apply Hw; right; exact Hx.
Qed.

Section Complete.
Variable M : nat -> nat -> nat -> F.
Variables d eta : nat -> F.
Variable alphabet : list nat.

(* a vector all of whose images lie in the span of the basis *)
Definition closed (basis : list (nat -> F)) : (nat -> F) -> Prop :=
  fun V => forall a, In a alphabet -> span (inb basis) (mv idx (M a) V).

(* the vectors met so far: still pending in the work list, or already expanded *)
Definition seen (work : list (list nat * (nat -> F))) (basis : list (nat -> F)) : (nat -> F) -> Prop :=
  fun V => In V (map snd work) \/ closed basis V.

(* d vanishes on the basis; the basis lies in the span of P (the vectors met so far); it spans eta *)
Definition SearchInv (P : (nat -> F) -> Prop) (basis : list (nat -> F)) : Prop :=
  (forall q, In q basis -> dot idx d q = 0) /\
  (forall q, In q basis -> span P q) /\
  span (inb basis) eta.

Lemma SearchInv_mono (P P' : (nat -> F) -> Prop) basis :
  (forall X, P X -> P' X) -> SearchInv P basis -> SearchInv P' basis.
Proof.
  intros Hs [Ia [Ib Ic]]. split; [exact Ia|split; [|exact Ic]].
  intros q Hq. apply (span_mono _ _ q Hs), Ib, Hq.
Qed.

Lemma closed_mono basis basis' V : incl basis basis' -> closed basis V -> closed basis' V.
Proof. intros H HV a Ha. apply (inb_mono basis _ _ H), HV, Ha. Qed.

(* a vector met on which d vanishes may be orthogonalised into the basis *)
Lemma SearchInv_snoc P basis u :
  SearchInv P basis -> P u -> dot idx d u = 0 -> SearchInv P (basis ++ [proj idx u basis]).
Proof.
  intros [Ia [Ib Ic]] Hu E. split; [|split].
  - apply (snoc_forall _ _ _ Ia). apply (span_dot0 (fun q => q = u \/ In q basis)).
    + intros q [->|Hq]; [exact E|apply Ia, Hq].
    + apply proj_span; [left; reflexivity|]. intros q Hq. apply span_gen. right; exact Hq.
  - apply (snoc_forall _ _ _ Ib). apply proj_span; assumption.
  - apply (inb_mono basis); [apply incl_appl, incl_refl|exact Ic].
Qed.

(* while V is being expanded it still counts as pending *)
Lemma expand_inv : forall al w V work basis work' basis',
  expand idx M d al w V work basis = inr (work', basis') ->
  SearchInv (seen ((w, V) :: work) basis) basis ->
  SearchInv (seen ((w, V) :: work') basis') basis' /\ incl basis basis' /\
  (forall a, In a al -> span (inb basis') (mv idx (M a) V)).
Proof.
  induction al as [|a rest IH]; intros w V work basis work' basis' HE HI; simpl in HE.
  - injection HE as <- <-. split; [exact HI|]. split; [apply incl_refl|]. intros a [].
  - set (u := freeze idx (mv idx (M a) V)) in *.
    destruct (seqb_reflect F (dot idx d u) 0) as [E|]; [simpl in HE|discriminate].
    (* in both branches the rest of the alphabet is expanded from a basis B whose span holds u *)
    assert (Hgo : forall work1 B, expand idx M d rest w V work1 B = inr (work', basis') ->
              SearchInv (seen ((w, V) :: work1) B) B -> incl basis B -> span (inb B) u ->
              SearchInv (seen ((w, V) :: work') basis') basis' /\ incl basis basis' /\
              (forall x, In x (a :: rest) -> span (inb basis') (mv idx (M x) V))).
    { intros work1 B HE1 HI1 HB Hu. destruct (IH _ _ _ _ _ _ HE1 HI1) as [HI' [Hinc Hcl]].
      split; [exact HI'|]. split; [exact (incl_tran HB Hinc)|].
      intros x [<-|Hx]; [|apply Hcl, Hx].
      apply (inb_mono B _ _ Hinc), (span_veq _ u _ Hu), veq_sym. exact (freeze_eq _). }
    destruct (is_zero idx (proj idx u basis)) eqn:Z.
    + apply (Hgo _ _ HE HI (incl_refl _)), proj_zero_span, Z.
    + assert (Hinc : incl basis (basis ++ [proj idx u basis])) by apply incl_appl, incl_refl.
      apply (Hgo _ _ HE); [|exact Hinc|apply proj_span_snoc].
      apply SearchInv_snoc; [|left; right; left; reflexivity|exact E].
      refine (SearchInv_mono _ _ basis _ HI).
      intros X [[H|H]|H]; [left; left; exact H|left; right; right; exact H|right; exact (closed_mono _ _ X Hinc H)].
Qed.

Lemma search_complete : forall fuel work basis,
  search idx M d alphabet fuel work basis = Some None ->
  SearchInv (seen work basis) basis ->
  forall w, (forall a, In a w -> In a alphabet) -> dot idx d (act idx M w eta) = 0.
Proof.
  induction fuel as [|f IH]; intros work basis HS HI; simpl in HS; [discriminate|].
  destruct work as [|[w V] rest].
  - (* nothing pending: the basis lies in the span of closed vectors, so its span is closed *)
    destruct HI as [Ia [Ib Ic]].
    apply (closure_complete M d eta alphabet (span (inb basis))).
    + exact Ic.
    + intros a v Ha Hv. apply (span_mv (inb basis)); [|exact Hv].
      intros q Hq. apply (span_mv (seen [] basis)); [|apply Ib, Hq].
      intros X [[]|HX]. apply HX, Ha.
    + intros v. apply span_dot0, Ia.
  - destruct (expand idx M d alphabet w V rest basis) as [c|[work' basis']] eqn:HE; [discriminate|].
    destruct (expand_inv alphabet w V rest basis work' basis' HE HI) as [HI' [_ Hcl]].
    apply (IH work' basis' HS). refine (SearchInv_mono _ _ basis' _ HI').
    intros X [[<-|H]|H]; [right; exact Hcl|left; exact H|right; exact H].
Qed.
End Complete.

Theorem none_complete : forall (M : nat -> nat -> nat -> F) (d eta : nat -> F) alphabet fuel,
  counterexample idx M d eta alphabet fuel = Some None ->
  forall w, (forall a, In a w -> In a alphabet) -> dot idx d (act idx M w eta) = 0.
Proof.
  intros M d eta alphabet fuel H. unfold counterexample in H.
  destruct (seqb_reflect F (dot idx d eta) 0) as [E|]; [simpl in H|discriminate].
  destruct (is_zero idx eta) eqn:Z.
  - (* eta = 0: the span of no vector at all is closed *)
    apply (closure_complete M d eta alphabet (span (inb []))).
    + apply span_zero, is_zero_true, Z.
    + intros a v _. apply span_mv. intros q [].
    + intros v. apply span_dot0. intros q [].
  - apply (search_complete M d eta alphabet fuel _ _ H).
    assert (Hf : veq eta (freeze idx eta)) by (apply veq_sym; exact (freeze_eq eta)).
    split; [|split].
    + intros q [<-|[]]. rewrite <- (dot_ext_r d _ _ Hf). exact E.
    + intros q [<-|[]]. apply span_gen. left; left; reflexivity.
    + apply (span_veq _ (freeze idx eta)); [apply span_gen; left; reflexivity|exact Hf].
Qed.

(* From here to [expand_basis_ortho]: the field is formally real (a sum of squares vanishes only if each
   square does).  The residual of Gram-Schmidt is then orthogonal to an orthogonal family of non-zero vectors,
   so the basis of the search stays such a family.  The other lemmas of the section do not use it. *)
Hypothesis dot_pos : forall u : nat -> F, dot idx u u = 0 -> forall i, In i idx -> u i = 0.

Fixpoint ortho (Q : list (nat -> F)) : Prop :=
  match Q with [] => True | q :: t => (forall p, In p t -> dot idx q p = 0) /\ ortho t end.
Definition nonzero (q : nat -> F) : Prop := exists i, In i idx /\ q i <> 0.

Lemma dot_self_nonzero q : nonzero q -> dot idx q q <> 0.
Proof. intros [i [Hi Hne]] H0. apply Hne. apply (dot_pos q H0 i Hi). Qed.

(* subtracting components along vectors orthogonal to p does not change p . u *)
Lemma proj_dot_keep : forall (Q : list (nat -> F)) (u p : nat -> F),
  (forall q, In q Q -> dot idx p q = 0) -> dot idx p (proj idx u Q) = dot idx p u.
Proof.
  induction Q as [|q Q IH]; intros u p HQ; [reflexivity|].
  change (proj idx u (q :: Q)) with (proj idx (freeze idx (proj1 idx u q)) Q).
  rewrite IH by (intros q' Hq'; apply HQ; right; exact Hq').
  rewrite (dot_ext_r p _ (proj1 idx u q) (freeze_eq _)).
  unfold proj1. rewrite dot_sub_r, dot_scale_r, (HQ q (or_introl eq_refl)). ring.
Qed.

Lemma proj_orth : forall (Q : list (nat -> F)) (u : nat -> F), ortho Q -> (forall q, In q Q -> nonzero q) ->
  forall q, In q Q -> dot idx q (proj idx u Q) = 0.
Proof.
  induction Q as [|q0 Q IH]; intros u HO HN q Hq; [destruct Hq|].
  destruct HO as [HO1 HO2].
  change (proj idx u (q0 :: Q)) with (proj idx (freeze idx (proj1 idx u q0)) Q).
  destruct Hq as [Hq|Hq].
  - subst q. rewrite proj_dot_keep by exact HO1.
    rewrite (dot_ext_r q0 _ (proj1 idx u q0) (freeze_eq _)).
    unfold proj1. rewrite dot_sub_r, dot_scale_r.
    pose proof (dot_self_nonzero q0 (HN q0 (or_introl eq_refl))) as Hne.
    field. exact Hne.
  - apply IH; [exact HO2| |exact Hq]. intros q' Hq'; apply HN; right; exact Hq'.
Qed.

Lemma ortho_snoc : forall (Q : list (nat -> F)) (q : nat -> F), ortho Q -> (forall p, In p Q -> dot idx p q = 0) -> ortho (Q ++ [q]).
Proof.
  induction Q as [|q0 Q IH]; intros q HO Hq; simpl.
  - split; [intros p []|exact I].
  - destruct HO as [HO1 HO2]. split.
    + apply (snoc_forall _ _ _ HO1). apply Hq. left; reflexivity.
    + apply IH; [exact HO2|]. intros p Hp; apply Hq; right; exact Hp.
Qed.

Lemma expand_basis_ortho : forall (M : nat -> nat -> nat -> F) (d : nat -> F) al w V work basis work' basis',
  expand idx M d al w V work basis = inr (work', basis') ->
  ortho basis -> (forall q, In q basis -> nonzero q) ->
  ortho basis' /\ (forall q, In q basis' -> nonzero q).
Proof.
  intros M d. induction al as [|a rest IH]; intros w V work basis work' basis' HE HO HN; simpl in HE.
  - injection HE as <- <-. split; assumption.
  - set (u := freeze idx (mv idx (M a) V)) in *.
    destruct (negb (seqb (dot idx d u) 0)); [discriminate|].
    destruct (is_zero idx (proj idx u basis)) eqn:Z.
    + apply (IH _ _ _ _ _ _ HE HO HN).
    + apply (IH _ _ _ _ _ _ HE).
      * apply ortho_snoc; [exact HO|]. intros p Hp. apply proj_orth; assumption.
      * apply (snoc_forall _ _ _ HN), is_zero_false, Z.
Qed.

(* [span (inb basis)] is the set of explicit finite linear combinations of the basis list *)

Fixpoint lincomb (cs : list F) (Q : list (nat -> F)) : nat -> F :=
  match cs, Q with
  | c :: cs', q :: Q' => fun i => c * q i + lincomb cs' Q' i
  | _, _ => vzero
  end.
Definition lspan (Q : list (nat -> F)) (v : nat -> F) : Prop :=
  exists cs : list F, length cs = length Q /\ veq v (lincomb cs Q).

Lemma lincomb_span : forall (cs : list F) (Q : list (nat -> F)), span (inb Q) (lincomb cs Q).
Proof.
  induction cs as [|c cs IH]; intros [|q Q]; simpl; try (apply span_zero, veq_refl).
  apply (span_add _ _ c q (lincomb cs Q)).
  - left; reflexivity.
  - apply (inb_mono Q); [apply incl_tl, incl_refl|apply IH].
  - apply veq_refl.
Qed.

Lemma lincomb_zeros : forall (Q : list (nat -> F)) i, lincomb (map (fun _ => 0) Q) Q i = 0.
Proof. induction Q as [|q Q IH]; intros i; simpl; [reflexivity|]. rewrite IH. ring. Qed.

(* adding c * q to a combination: bump the coefficient at the position of q *)
Lemma lincomb_bump : forall (Q : list (nat -> F)) (q : nat -> F) (c : F) (cs : list F),
  In q Q -> length cs = length Q ->
  exists cs', length cs' = length Q /\ forall i, lincomb cs' Q i = lincomb cs Q i + c * q i.
Proof.
  induction Q as [|q0 Q IH]; intros q c cs Hq HL; [destruct Hq|].
  destruct cs as [|c0 cs]; [discriminate|]. injection HL as HL. destruct Hq as [->|Hq].
  - exists ((c0 + c) :: cs). split; [exact (f_equal Datatypes.S HL)|]. intros i. cbn [lincomb]. ring.
  - destruct (IH q c cs Hq HL) as [cs' [HL' HS]]. exists (c0 :: cs'). split; [exact (f_equal Datatypes.S HL')|].
    intros i. cbn [lincomb]. rewrite HS. apply (sadd_assoc F).
Qed.

Lemma span_lspan (Q : list (nat -> F)) (v : nat -> F) : span (inb Q) v <-> lspan Q v.
Proof.
  split.
  - intros H. induction H as [v Hz|v c q z Hq Hs IH Hz].
    + exists (map (fun _ => 0) Q). split; [apply map_length|].
      intros i Hi. rewrite (Hz i Hi), lincomb_zeros. reflexivity.
    + destruct IH as [cs [HL HS]]. destruct (lincomb_bump Q q c cs Hq HL) as [cs' [HL' HS']].
      exists cs'. split; [exact HL'|].
      intros i Hi. rewrite (Hz i Hi), HS', (HS i Hi). apply (sadd_comm F).
  - intros [cs [_ Hv]]. apply (span_veq _ (lincomb cs Q) _ (lincomb_span cs Q) Hv).
Qed.

End TzengProofs.

From Coq Require Import QArith Qcanon.

Lemma Qc_sq_nonneg (x : Qc) : (0 <= x * x)%Qc.
Proof.
  unfold Qcle. cbn [this Qcmult Q2Qc]. rewrite !Qred_correct.
  unfold Qle. cbn [Qnum Qden Qmult]. rewrite Z.mul_1_r. apply Z.square_nonneg.
Qed.

Lemma Qc_sum_nonneg_zero (a b : Qc) : (0 <= a)%Qc -> (0 <= b)%Qc -> (a + b = 0)%Qc -> a = 0%Qc /\ b = 0%Qc.
Proof.
  intros Ha Hb Hab.
  assert (Ea : a = 0%Qc).
  { apply Qcle_antisym; [|exact Ha].
    pose proof (Qcplus_le_compat a a 0 b (Qcle_refl a) Hb) as H. rewrite Qcplus_0_r, Hab in H. exact H. }
  split; [exact Ea|]. rewrite Ea, Qcplus_0_l in Hab. exact Hab.
Qed.

Lemma Qc_sumsq_nonneg (l : list nat) (u : nat -> Qc) :
  (0 <= bsum (S:=QcSR) l (fun i => u i * u i)%Qc)%Qc.
Proof.
  induction l as [|k t IH].
  - rewrite bsum_nil. apply Qcle_refl.
  - rewrite bsum_cons, <- (Qcplus_0_l 0). exact (Qcplus_le_compat _ _ _ _ (Qc_sq_nonneg (u k)) IH).
Qed.

Lemma Qc_dot_pos : forall (idx : list nat) (u : nat -> Qc),
  dot (F:=QcFR) idx u u = 0%Qc -> forall i, In i idx -> u i = 0%Qc.
Proof.
  intros idx u. unfold dot.
  change (bsum (S:=QcSR) idx (fun i => u i * u i)%Qc = 0%Qc -> forall i, In i idx -> u i = 0%Qc).
  induction idx as [|k t IH]; intros H i Hi; [destruct Hi|].
  rewrite bsum_cons in H.
  change (u k * u k + bsum (S:=QcSR) t (fun i => u i * u i)%Qc = 0)%Qc in H.
  destruct (Qc_sum_nonneg_zero _ _ (Qc_sq_nonneg (u k)) (Qc_sumsq_nonneg t u) H) as [Hk Ht].
  destruct Hi as [Hi|Hi].
  - subst i. destruct (Qcmult_integral _ _ Hk); assumption.
  - apply IH; assumption.
Qed.

Corollary Qc_cex_sound : forall idx (M : nat -> nat -> nat -> Qc) (d eta : nat -> Qc) alphabet fuel w v,
  counterexample (F:=QcFR) idx M d eta alphabet fuel = Some (Some (w, v)) ->
  v = dot (F:=QcFR) idx d (act (F:=QcFR) idx M w eta) /\ v <> 0%Qc.
Proof. intros idx. exact (cex_sound QcFR idx). Qed.

Corollary Qc_cex_word_over_alphabet : forall idx (M : nat -> nat -> nat -> Qc) (d eta : nat -> Qc) alphabet fuel w v,
  counterexample (F:=QcFR) idx M d eta alphabet fuel = Some (Some (w, v)) ->
  forall a, In a w -> In a alphabet.
Proof. intros idx. exact (cex_word_over_alphabet QcFR idx). Qed.

Corollary Qc_none_complete : forall idx (M : nat -> nat -> nat -> Qc) (d eta : nat -> Qc) alphabet fuel,
  counterexample (F:=QcFR) idx M d eta alphabet fuel = Some None ->
  forall w, (forall a, In a w -> In a alphabet) -> dot (F:=QcFR) idx d (act (F:=QcFR) idx M w eta) = 0%Qc.
Proof. intros idx. exact (none_complete QcFR idx). Qed.

Corollary Qc_proj_orth : forall idx (Q : list (nat -> Qc)) (u : nat -> Qc),
  ortho QcFR idx Q -> (forall q, In q Q -> nonzero QcFR idx q) ->
  forall q, In q Q -> dot (F:=QcFR) idx q (proj (F:=QcFR) idx u Q) = 0%Qc.
Proof. intros idx. exact (proj_orth QcFR idx (Qc_dot_pos idx)). Qed.

Corollary Qc_expand_basis_ortho : forall idx (M : nat -> nat -> nat -> Qc) (d : nat -> Qc) al w V work basis work' basis',
  expand (F:=QcFR) idx M d al w V work basis = inr (work', basis') ->
  ortho QcFR idx basis -> (forall q, In q basis -> nonzero QcFR idx q) ->
  ortho QcFR idx basis' /\ (forall q, In q basis' -> nonzero QcFR idx q).
Proof. intros idx. exact (expand_basis_ortho QcFR idx (Qc_dot_pos idx)). Qed.

Print Assumptions freeze_eq.
Print Assumptions dot_ext.
Print Assumptions mv_ext.
Print Assumptions cex_sound.
Print Assumptions cex_word_over_alphabet.
Print Assumptions closure_complete.
Print Assumptions proj_residual.
Print Assumptions none_complete.
Print Assumptions proj_orth.
Print Assumptions expand_basis_ortho.
Print Assumptions span_lspan.
Print Assumptions Qc_dot_pos.
Print Assumptions Qc_cex_sound.
Print Assumptions Qc_cex_word_over_alphabet.
Print Assumptions Qc_none_complete.
Print Assumptions Qc_proj_orth.
Print Assumptions Qc_expand_basis_ortho.
