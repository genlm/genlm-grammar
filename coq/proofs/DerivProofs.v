(* CFG.derivative(a) (model/Deriv.v): the derivative grammar computes the left quotient.
   If f is a solution of the equation system of G (f X xs = gstep G f X xs), U X = f X []
   are the null weights, and the slash names sl X are new, then
       deriv_val sl a G f     (sl X |-> (xs |-> f X (a :: xs)), other symbols unchanged)
   is a solution of the equation system of  derivative U sl a G.  In particular the new
   start symbol sl s gives xs the weight that s gives a :: xs in G.
   cfg.py adds no slash rule for a head whose slash name already is a nonterminal
   (`if slash(r.head, a) in self.N: continue`); the model has no such test: the slash names
   are assumed new (fresh_head, fresh_body), and then the test never fires. *)
From Coq Require Import List Arith.
From GV.lib Require Import Semiring BigSum.
From GV.model Require Import Cfg Deriv.
From GV.proofs Require Import UnfoldProofs CkyProofs FoldProofs.
Import ListNotations.
Local Open Scope sr_scope.

Section DerivProofs.
Variable S : SR.
Add Ring DerivRing : (sth S).

(* the weight of N Y :: rest on a :: xs: either Y derives the empty string, or Y takes
   the first letter *)
Lemma Wb_N_cons (f : nat -> list nat -> S) Y rest a xs :
  Wb f (N Y :: rest) (a :: xs)
  = f Y [] * Wb f rest (a :: xs)
    + bsum (splits xs) (fun p => f Y (a :: fst p) * Wb f rest (snd p)).
Proof. cbn [Wb splits]. rewrite bsum_cons, bsum_map. reflexivity. Qed.

Lemma in_body_nts Y body : In Y (body_nts body) <-> In (N Y) body.
Proof.
  unfold body_nts. split.
  - intros H. apply in_flat_map in H. destruct H as [[b|Z] [Hs HY]]; [destruct HY|].
    destruct HY as [E|[]]. subst Z. exact Hs.
  - intros HY. apply in_flat_map. exists (N Y). split; [exact HY|left; reflexivity].
Qed.

Lemma head_in_nts (G : grammar S) r : In r G -> In (rhead r) (nts G).
Proof. intros Hr. unfold nts. apply in_flat_map. exists r. split; [exact Hr|left; reflexivity]. Qed.

Lemma body_in_nts (G : grammar S) r Y : In r G -> In (N Y) (rbody r) -> In Y (nts G).
Proof.
  intros Hr HY. unfold nts. apply in_flat_map. exists r. split; [exact Hr|].
  right. apply in_body_nts. exact HY.
Qed.

Lemma in_nts_inv (G : grammar S) Y :
  In Y (nts G) -> exists r, In r G /\ (rhead r = Y \/ In (N Y) (rbody r)).
Proof.
  unfold nts. intros H. apply in_flat_map in H. destruct H as [r [Hr [E|HY]]]; exists r; (split; [exact Hr|]).
  - left; exact E.
  - right. apply in_body_nts. exact HY.
Qed.

Section Val.
Variable sl : nat -> nat.
Variable a : nat.
Variable G : grammar S.
Variable f : nat -> list nat -> S.

Hypothesis sl_inj : forall X Y, sl X = sl Y -> X = Y.
(* the slash names are new *)
Hypothesis fresh_head : forall r X, In r G -> rhead r <> sl X.
Hypothesis fresh_body : forall r X, In r G -> ~ In (N (sl X)) (rbody r).

Local Notation f' := (deriv_val sl a G f).

Lemma deriv_val_other Z ys :
  (forall X, In X (nts G) -> sl X <> Z) -> f' Z ys = f Z ys.
Proof.
  intros HZ. unfold deriv_val.
  destruct (find_namedP sl (nts G) Z) as [X HX E|_]; [destruct (HZ X HX E)|reflexivity].
Qed.

Lemma nts_not_slash Y X : In Y (nts G) -> sl X <> Y.
Proof.
  intros HY E. destruct (in_nts_inv G Y HY) as [r [Hr [Hh|Hb]]].
  - apply (fresh_head r X Hr). rewrite Hh, E. reflexivity.
  - apply (fresh_body r X Hr). rewrite E. exact Hb.
Qed.

Lemma deriv_val_nts Y ys : In Y (nts G) -> f' Y ys = f Y ys.
Proof. intros HY. apply deriv_val_other. intros X _. apply nts_not_slash. exact HY. Qed.

Lemma Wb_deriv_val_in body :
  (forall Y, In (N Y) body -> In Y (nts G)) -> forall xs, Wb f' body xs = Wb f body xs.
Proof. intros Hb. apply Wb_ext_in. intros Y ys HY. apply deriv_val_nts, Hb, HY. Qed.

Lemma Wb_deriv_val r : In r G -> forall xs, Wb f' (rbody r) xs = Wb f (rbody r) xs.
Proof. intros Hr. apply Wb_deriv_val_in. intros Y. apply body_in_nts. exact Hr. Qed.

Hypothesis Hsol : solves S G f.

(* the value of a slash name: for every X, in G or not (then both sides are zero) *)
Lemma deriv_val_slash X xs : f' (sl X) xs = f X (a :: xs).
Proof.
  unfold deriv_val. destruct (find_namedP sl (nts G) (sl X)) as [X' _ E|HX].
  - apply sl_inj in E. subst X'. reflexivity.
  - rewrite !(solves_nohead S G f _ _ Hsol); [reflexivity| |].
    + intros r Hr E. apply (HX X); [rewrite <- E; apply head_in_nts; exact Hr|reflexivity].
    + intros r Hr. apply fresh_head. exact Hr.
Qed.

Variable U : nat -> S.
Hypothesis HU : forall X, U X = f X [].

Lemma deriv_body_sum (w : S) (head : nat) (body : list sym) :
  (forall Y, In (N Y) body -> In Y (nts G)) ->
  forall (delta : S) (xs : list nat),
    bsum (deriv_body U sl a w head delta body) (fun r' => rw r' * Wb f' (rbody r') xs)
    = delta * w * Wb f body (a :: xs).
Proof.
  induction body as [|[b|Y] rest IH]; intros Hb delta xs; cbn [deriv_body].
  - rewrite bsum_nil. symmetry. apply smul_0_r.
  - rewrite Wb_T_cons. destruct (Nat.eqb b a); [|rewrite bsum_nil; symmetry; apply smul_0_r].
    rewrite bsum_cons, bsum_nil. unfold rw, rbody. cbn [fst snd].
    rewrite Wb_deriv_val_in by (intros Y HY; apply Hb; right; exact HY). ring.
  - assert (Hrest : forall Z, In (N Z) rest -> In Z (nts G)) by (intros Z HZ; apply Hb; right; exact HZ).
    rewrite bsum_cons, (IH Hrest), Wb_N_cons.
    unfold rw at 1. unfold rbody at 1. cbn [fst snd Wb].
    rewrite (bsum_ext S (splits xs) _ (fun p => f Y (a :: fst p) * Wb f rest (snd p)))
      by (intros p _; rewrite deriv_val_slash, (Wb_deriv_val_in rest Hrest); reflexivity).
    rewrite (HU Y). ring.
Qed.

Corollary deriv_body_left (head : nat) (body : list sym) (xs : list nat) :
  (forall Y, In (N Y) body -> In Y (nts G)) ->
  Wb f body (a :: xs)
  = bsum (deriv_body U sl a 1 head 1 body) (fun r' => rw r' * Wb f' (rbody r') xs).
Proof. intros Hb. rewrite (deriv_body_sum 1 head body Hb 1 xs). ring. Qed.

Lemma deriv_body_in (w : S) head body : forall delta r',
  In r' (deriv_body U sl a w head delta body) ->
  rhead r' = sl head /\
  forall s, In s (rbody r') -> In s body \/ exists Y, In (N Y) body /\ s = N (sl Y).
Proof.
  induction body as [|[b|Y] rest IH]; intros delta r' Hr'; cbn [deriv_body] in Hr'.
  - destruct Hr'.
  - destruct (Nat.eqb b a); [|destruct Hr']. destruct Hr' as [<-|[]].
    split; [reflexivity|]. intros s Hs. left. right. exact Hs.
  - destruct Hr' as [<-|Hr'].
    + split; [reflexivity|]. intros s [<-|Hs].
      * right. exists Y. split; [left|]; reflexivity.
      * left. right. exact Hs.
    + destruct (IH _ r' Hr') as [Hh Hs]. split; [exact Hh|]. intros s Hin.
      destruct (Hs s Hin) as [H|[Z [HZ E]]].
      * left. right. exact H.
      * right. exists Z. split; [right; exact HZ|exact E].
Qed.

Lemma derivative_rules r' :
  In r' (derivative U sl a G) ->
  In r' G \/
  exists r, In r G /\ rhead r' = sl (rhead r) /\
            forall s, In s (rbody r') ->
                      In s (rbody r) \/ exists Y, In (N Y) (rbody r) /\ s = N (sl Y).
Proof.
  unfold derivative. intros H. apply in_app_or in H. destruct H as [H|H]; [left; exact H|].
  apply in_flat_map in H. destruct H as [r [Hr Hr']].
  right. exists r. split; [exact Hr|]. exact (deriv_body_in _ _ _ _ _ Hr').
Qed.

Lemma derivative_incl r : In r G -> In r (derivative U sl a G).
Proof. intros Hr. unfold derivative. apply in_or_app. left; exact Hr. Qed.

(* the added rules, seen from a slash name *)
Lemma gstep_added_slash X xs :
  gstep S (flat_map (fun r => deriv_body U sl a (rw r) (rhead r) 1 (rbody r)) G) f' (sl X) xs
  = gstep S G f X (a :: xs).
Proof.
  unfold gstep. rewrite bsum_flat_map. apply bsum_ext. intros r Hr.
  rewrite (bsum_ext S (deriv_body U sl a (rw r) (rhead r) 1 (rbody r)) _
             (fun r' => if Nat.eqb (rhead r) X then rw r' * Wb f' (rbody r') xs else 0))
    by (intros r' Hr'; rewrite (proj1 (deriv_body_in _ _ _ _ _ Hr')), (eqb_inj_f sl sl_inj); reflexivity).
  destruct (Nat.eqb (rhead r) X); [|apply bsum_const_zero].
  rewrite deriv_body_sum by (intros Y; apply body_in_nts; exact Hr). rewrite smul_1_l. reflexivity.
Qed.

(* the kept rules, seen from a symbol that is not a slash name of G *)
Lemma gstep_kept Z xs : gstep S G f' Z xs = gstep S G f Z xs.
Proof. apply gstep_ext_in. intros r Y ys Hr HY. apply deriv_val_nts, (body_in_nts G r Y Hr HY). Qed.

Theorem derivative_solves : solves S (derivative U sl a G) f'.
Proof.
  intros Z xs. unfold derivative. rewrite gstep_app.
  destruct (find_namedP sl (nts G) Z) as [X _ <-|HZ].
  - (* Z = sl X: only the added rules *)
    rewrite gstep_added_slash.
    rewrite (gstep_nohead S G f' (sl X) xs) by (intros r Hr; apply fresh_head; exact Hr).
    rewrite deriv_val_slash, (Hsol X (a :: xs)). symmetry. apply sadd_0_l.
  - (* Z is not a slash name of G: only the kept rules *)
    rewrite (deriv_val_other Z xs HZ), gstep_kept, <- (Hsol Z xs).
    rewrite (gstep_nohead S (flat_map _ G) f' Z xs); [symmetry; apply sadd_0_r|].
    intros r' Hr'. apply in_flat_map in Hr'. destruct Hr' as [r [Hr Hr']].
    rewrite (proj1 (deriv_body_in _ _ _ _ _ Hr')). apply HZ. apply head_in_nts. exact Hr.
Qed.

Corollary derivative_start (s : nat) (xs : list nat) : f' (sl s) xs = f s (a :: xs).
Proof. apply deriv_val_slash. Qed.

Corollary derivative_old (X : nat) (xs : list nat) : In X (nts G) -> f' X xs = f X xs.
Proof. apply deriv_val_nts. Qed.

(* needed for the next derivative *)
Corollary derivative_null (X : nat) : f' (sl X) [] = f X [a].
Proof. apply deriv_val_slash. Qed.

End Val.


Corollary derivative_W_stationary (sl : nat -> nat) (a : nat) (G : grammar S) (h : nat) :
  (forall X Y, sl X = sl Y -> X = Y) ->
  (forall r X, In r G -> rhead r <> sl X) ->
  (forall r X, In r G -> ~ In (N (sl X)) (rbody r)) ->
  (forall X xs, W G (Datatypes.S h) X xs = W G h X xs) ->
  solves S (derivative (fun X => W G h X []) sl a G) (deriv_val sl a G (W G h))
  /\ forall s xs, deriv_val sl a G (W G h) (sl s) xs = W G h s (a :: xs).
Proof.
  intros Hinj Hh Hb Hst. pose proof (stationary_solves S G h Hst) as Hsol. split.
  - apply derivative_solves; try assumption. intros X; reflexivity.
  - intros s xs. apply derivative_start; assumption.
Qed.

(* the slash names of a second derivative are new for the first derivative as soon as
   they are new for G and differ from the first slash names *)
Lemma derivative_fresh (U : nat -> S) (sl sl2 : nat -> nat) (a : nat) (G : grammar S) :
  (forall r X, In r G -> rhead r <> sl2 X) ->
  (forall r X, In r G -> ~ In (N (sl2 X)) (rbody r)) ->
  (forall X Y, sl2 X <> sl Y) ->
  (forall r X, In r (derivative U sl a G) -> rhead r <> sl2 X)
  /\ (forall r X, In r (derivative U sl a G) -> ~ In (N (sl2 X)) (rbody r)).
Proof.
  intros Hh Hb Hd. split.
  - intros r' X Hr'. destruct (derivative_rules sl a G U r' Hr') as [Hr|[r [Hr [E _]]]].
    + apply Hh. exact Hr.
    + rewrite E. intros E'. exact (Hd X (rhead r) (eq_sym E')).
  - intros r' X Hr' Hin. destruct (derivative_rules sl a G U r' Hr') as [Hr|[r [Hr [_ Hs]]]].
    + exact (Hb r' X Hr Hin).
    + destruct (Hs _ Hin) as [H|[Y [_ E]]].
      * exact (Hb r X Hr H).
      * injection E as E. exact (Hd X Y E).
Qed.

Theorem derivative2_solves (sl sl2 : nat -> nat) (a b : nat) (G : grammar S)
        (f : nat -> list nat -> S) (U U2 : nat -> S) :
  (forall X Y, sl X = sl Y -> X = Y) ->
  (forall X Y, sl2 X = sl2 Y -> X = Y) ->
  (forall r X, In r G -> rhead r <> sl X) ->
  (forall r X, In r G -> ~ In (N (sl X)) (rbody r)) ->
  (forall r X, In r G -> rhead r <> sl2 X) ->
  (forall r X, In r G -> ~ In (N (sl2 X)) (rbody r)) ->
  (forall X Y, sl2 X <> sl Y) ->
  solves S G f ->
  (forall X, U X = f X []) ->
  (forall X, U2 X = deriv_val sl a G f X []) ->
  let D := derivative U sl a G in
  let f2 := deriv_val sl2 b D (deriv_val sl a G f) in
  solves S (derivative U2 sl2 b D) f2
  /\ forall s xs, f2 (sl2 (sl s)) xs = f s (a :: b :: xs).
Proof.
  intros Hinj Hinj2 Hh Hb Hh2 Hb2 Hd Hsol HU HU2 D f2.
  destruct (derivative_fresh U sl sl2 a G Hh2 Hb2 Hd) as [Hh2' Hb2'].
  assert (Hsol' : solves S D (deriv_val sl a G f)).
  { apply derivative_solves; assumption. }
  split.
  - apply derivative_solves; assumption.
  - intros s xs. unfold f2.
    rewrite (derivative_start sl2 b D (deriv_val sl a G f) Hinj2 Hh2' Hsol' (sl s) xs).
    apply derivative_start; assumption.
Qed.

End DerivProofs.

Print Assumptions deriv_body_sum.
Print Assumptions derivative_solves.
Print Assumptions derivative_start.
Print Assumptions derivative_rules.
Print Assumptions derivative_W_stationary.
Print Assumptions derivative2_solves.
