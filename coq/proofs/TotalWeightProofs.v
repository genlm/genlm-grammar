(* Total weight of an epsilon-free weighted automaton with an acyclic arc graph.
   The total is computed as  sum_i start[i] * b[i]  where the backward
   vector b solves  b = A b + F  (A = arc weights summed over labels, F = final
   weights).  When A is nilpotent the solution is unique and the total equals
   the sum of the weights of all strings, i.e. the sum over all accepting paths. *)
From Coq Require Import List Arith Bool BinNat.
From GV.lib Require Import Semiring BigSum.
From GV.proofs Require Import ClosureExtra.
From GV.model Require Import Wfsa.
From GV.proofs Require Import WfsaProofs ProductProofs.
Import ListNotations.
Local Open Scope sr_scope.

Section TotalWeight.
Variable S : SR.

(* total weight of the arcs from i to j (all labels) *)
Definition arcw (m : wfsa S) (i j : nat) : S :=
  bsum (warcs m) (fun ar => if Nat.eqb (asrc ar) i && Nat.eqb (adst ar) j then awt ar else 0).

(* weight of all accepting paths with exactly n arcs starting in q *)
Fixpoint paths_n (m : wfsa S) (Q : list nat) (n : nat) (q : nat) : S :=
  match n with
  | O => wget (wfinal m) q
  | Datatypes.S n' => bsum Q (fun j => arcw m q j * paths_n m Q n' j)
  end.

(* n-fold application of the operator  (T g) q = sum_j A[q,j] * g j : [opn] of ClosureExtra at
   the arc-weight matrix ([Tn_opn]); it stays because [nilpotent] is stated with it *)
Fixpoint Tn (m : wfsa S) (Q : list nat) (n : nat) (g : nat -> S) (q : nat) : S :=
  match n with
  | O => g q
  | Datatypes.S n' => bsum Q (fun j => arcw m q j * Tn m Q n' g j)
  end.

Definition nilpotent (m : wfsa S) (Q : list nat) (N : nat) : Prop :=
  forall g q, In q Q -> Tn m Q N g q = 0.

(* the arcs leaving q, each followed by P at its target: by label / by target *)
Lemma arcs_by_target (Q : list nat) (m : wfsa S) (P : nat -> S) (q : nat) :
  NoDup Q -> (forall ar, In ar (warcs m) -> In (adst ar) Q) ->
  bsum (warcs m) (fun ar => if Nat.eqb (asrc ar) q then awt ar * P (adst ar) else 0)
  = bsum Q (fun j => arcw m q j * P j).
Proof.
  intros HQ Hdst. symmetry.
  exact (bsum_by_key S (warcs m) Q adst (fun ar => Nat.eqb (asrc ar) q) awt P HQ Hdst).
Qed.

Lemma arcs_by_label (V : list nat) (m : wfsa S) (P : nat -> S) (q : nat) :
  NoDup V -> (forall ar, In ar (warcs m) -> exists a, albl ar = Some a /\ In a V) ->
  bsum V (fun c => bsum (warcs m) (astep q c P))
  = bsum (warcs m) (fun ar => if Nat.eqb (asrc ar) q then awt ar * P (adst ar) else 0).
Proof.
  intros HV Hlbl. rewrite (astep_by_label S V (warcs m) q (fun _ => P) HV Hlbl).
  apply bsum_ext; intros ar Har. destruct (Hlbl ar Har) as [a [-> _]]. reflexivity.
Qed.

Theorem paths_n_words : forall (V Q : list nat) (m : wfsa S), NoDup V -> NoDup Q ->
  (forall ar, In ar (warcs m) -> exists a, albl ar = Some a /\ In a V) ->
  (forall ar, In ar (warcs m) -> In (adst ar) Q) ->
  forall n q, bsum (words_eq V n) (fun xs => pw m q xs) = paths_n m Q n q.
Proof.
  intros V Q m HV HQ Hlbl Hdst n. induction n as [|n IH]; intros q.
  - change (words_eq V O) with [@nil nat]. rewrite bsum_cons, bsum_nil. apply sadd_0_r.
  - rewrite bsum_words_eq_S.
    change (paths_n m Q (Datatypes.S n) q) with (bsum Q (fun j => arcw m q j * paths_n m Q n j)).
    rewrite <- (arcs_by_target Q m (paths_n m Q n) q HQ Hdst).
    rewrite <- (arcs_by_label V m (paths_n m Q n) q HV Hlbl).
    apply bsum_ext; intros c _.
    apply (eq_trans (astep_bsum S (words_eq V n) (warcs m) q c (fun w d => pw m d w))).
    apply bsum_ext; intros ar _. unfold astep. rewrite IH. reflexivity.
Qed.

(* Tn and paths_n are iterates of the operator  v |-> A v  of the arc-weight matrix *)
Lemma Tn_opn (Q : list nat) (m : wfsa S) (g : nat -> S) :
  forall n q, Tn m Q n g q = opn Q (arcw m) n g q.
Proof.
  intros n. induction n as [|n IH]; intros q; cbn [Tn opn]; [reflexivity|].
  apply bsum_ext; intros j _. rewrite IH. reflexivity.
Qed.

Lemma nilpotent_opn (Q : list nat) (m : wfsa S) (N : nat) :
  nilpotent m Q N -> forall v q, In q Q -> opn Q (arcw m) N v q = 0.
Proof. intros Hnil v q Hq. rewrite <- Tn_opn. exact (Hnil v q Hq). Qed.

Lemma paths_n_Tn (Q : list nat) (m : wfsa S) :
  forall n q, paths_n m Q n q = Tn m Q n (fun x => wget (wfinal m) x) q.
Proof.
  intros n. induction n as [|n IH]; intros q; simpl.
  - reflexivity.
  - apply bsum_ext; intros j _. rewrite IH. reflexivity.
Qed.

Lemma path_sum_opn (Q : list nat) (m : wfsa S) (N q : nat) :
  bsum (seq 0 N) (fun n => paths_n m Q n q)
  = bsum (seq 0 N) (fun t => opn Q (arcw m) t (wget (wfinal m)) q).
Proof. apply bsum_ext; intros n _. rewrite paths_n_Tn. apply Tn_opn. Qed.

Theorem backward_is_path_sum : forall (Q : list nat) (m : wfsa S) (N : nat) (b : nat -> S),
  nilpotent m Q N ->
  (forall q, In q Q -> b q = wget (wfinal m) q + bsum Q (fun j => arcw m q j * b j)) ->
  forall q, In q Q -> b q = bsum (seq 0 N) (fun n => paths_n m Q n q).
Proof.
  intros Q m N b Hnil Hb q Hq. rewrite path_sum_opn.
  exact (nilpotent_solution S Q (arcw m) N (nilpotent_opn Q m N Hnil) (wget (wfinal m)) b Hb q Hq).
Qed.

Corollary backward_unique_nilpotent : forall (Q : list nat) (m : wfsa S) (N : nat) (b b' : nat -> S),
  nilpotent m Q N ->
  (forall q, In q Q -> b q = wget (wfinal m) q + bsum Q (fun j => arcw m q j * b j)) ->
  (forall q, In q Q -> b' q = wget (wfinal m) q + bsum Q (fun j => arcw m q j * b' j)) ->
  forall q, In q Q -> b q = b' q.
Proof.
  intros Q m N b b' Hnil Hb Hb' q Hq.
  rewrite (backward_is_path_sum Q m N b Hnil Hb q Hq).
  rewrite (backward_is_path_sum Q m N b' Hnil Hb' q Hq). reflexivity.
Qed.

Theorem path_sum_solves : forall (Q : list nat) (m : wfsa S) (N : nat),
  nilpotent m Q N ->
  forall q, In q Q ->
    bsum (seq 0 N) (fun n => paths_n m Q n q)
    = wget (wfinal m) q + bsum Q (fun j => arcw m q j * bsum (seq 0 N) (fun n => paths_n m Q n j)).
Proof.
  intros Q m N Hnil q Hq.
  rewrite path_sum_opn, (nilpotent_series_solves S Q (arcw m) N (nilpotent_opn Q m N Hnil) _ q Hq).
  f_equal. apply bsum_ext; intros j _. rewrite path_sum_opn. reflexivity.
Qed.

Theorem total_weight_is_string_sum : forall (V Q : list nat) (m : wfsa S) (N : nat) (b : nat -> S),
  NoDup V -> NoDup Q ->
  (forall ar, In ar (warcs m) -> exists a, albl ar = Some a /\ In a V) ->
  (forall ar, In ar (warcs m) -> In (adst ar) Q) -> (forall e, In e (winit m) -> In (fst e) Q) ->
  nilpotent m Q N ->
  (forall q, In q Q -> b q = wget (wfinal m) q + bsum Q (fun j => arcw m q j * b j)) ->
  bsum (winit m) (fun e => snd e * b (fst e))
  = bsum (seq 0 N) (fun n => bsum (words_eq V n) (fun xs => pathsum m xs)).
Proof.
  intros V Q m N b HV HQ Hlbl Hdst Hinit Hnil Hb.
  transitivity (bsum (winit m) (fun e => bsum (seq 0 N) (fun n =>
                  snd e * bsum (words_eq V n) (fun xs => pw m (fst e) xs)))).
  - apply bsum_ext; intros e He.
    rewrite (backward_is_path_sum Q m N b Hnil Hb (fst e) (Hinit e He)).
    rewrite <- bsum_mul_l. apply bsum_ext; intros n _.
    rewrite (paths_n_words V Q m HV HQ Hlbl Hdst). reflexivity.
  - rewrite bsum_swap. apply bsum_ext; intros n _.
    unfold pathsum. rewrite bsum_swap. apply bsum_ext; intros e _.
    rewrite bsum_mul_l. reflexivity.
Qed.

(* strings of length < N+1 are the strings of length <= N *)
Lemma bsum_words_le_seq (V : list nat) (g : list nat -> S) :
  forall n, bsum (seq 0 (Datatypes.S n)) (fun k => bsum (words_eq V k) g) = bsum (words_le V n) g.
Proof.
  intros n. induction n as [|n IH].
  - change (seq 0 1) with [O]. rewrite bsum_cons, bsum_nil. apply sadd_0_r.
  - rewrite bsum_seq_S, IH. symmetry. apply (bsum_app S (words_le V n)).
Qed.

Corollary total_weight_is_string_sum_le : forall (V Q : list nat) (m : wfsa S) (N : nat) (b : nat -> S),
  NoDup V -> NoDup Q ->
  (forall ar, In ar (warcs m) -> exists a, albl ar = Some a /\ In a V) ->
  (forall ar, In ar (warcs m) -> In (adst ar) Q) -> (forall e, In e (winit m) -> In (fst e) Q) ->
  nilpotent m Q (Datatypes.S N) ->
  (forall q, In q Q -> b q = wget (wfinal m) q + bsum Q (fun j => arcw m q j * b j)) ->
  bsum (winit m) (fun e => snd e * b (fst e)) = bsum (words_le V N) (fun xs => pathsum m xs).
Proof.
  intros V Q m N b HV HQ Hlbl Hdst Hinit Hnil Hb.
  rewrite (total_weight_is_string_sum V Q m (Datatypes.S N) b HV HQ Hlbl Hdst Hinit Hnil Hb).
  apply bsum_words_le_seq.
Qed.

End TotalWeight.

Arguments arcw {S} m i j. Arguments paths_n {S} m Q n q. Arguments Tn {S} m Q n g q.
Arguments nilpotent {S} m Q N.

Print Assumptions paths_n_words.
Print Assumptions backward_is_path_sum.
Print Assumptions backward_unique_nilpotent.
Print Assumptions path_sum_solves.
Print Assumptions total_weight_is_string_sum.
Print Assumptions total_weight_is_string_sum_le.

(* example over N:  0 -5-> 1 (2), 1 -6-> 2 (3), 0 -6-> 2 (4) *)

Definition ex_m : wfsa NSR :=
  @mkW NSR [(0%nat, 1%N)] [(2%nat, 1%N)]
      [(0%nat, Some 5%nat, 1%nat, 2%N); (1%nat, Some 6%nat, 2%nat, 3%N); (0%nat, Some 6%nat, 2%nat, 4%N)].
Definition ex_Q : list nat := [0; 1; 2]%nat.
Definition ex_V : list nat := [5; 6]%nat.
Definition ex_b (q : nat) : N := match q with 0%nat => 10%N | 1%nat => 3%N | 2%nat => 1%N | _ => 0%N end.

Example ex_paths_n :
  map (fun n => map (paths_n ex_m ex_Q n) ex_Q) [0; 1; 2; 3]%nat
  = [[0; 0; 1]; [4; 3; 0]; [6; 0; 0]; [0; 0; 0]]%N.
Proof. vm_compute. reflexivity. Qed.

Example ex_b_solves : forall q, In q ex_Q ->
  ex_b q = sadd (wget (wfinal ex_m) q) (bsum ex_Q (fun j => smul (arcw ex_m q j) (ex_b j))).
Proof. intros q Hq. destruct Hq as [<-|[<-|[<-|[]]]]; vm_compute; reflexivity. Qed.

Example ex_nilpotent : nilpotent ex_m ex_Q 3.
Proof. intros g q Hq. destruct Hq as [<-|[<-|[<-|[]]]]; vm_compute; reflexivity. Qed.

Example ex_strings :
  pathsum ex_m [5; 6]%nat = 6%N /\ pathsum ex_m [6]%nat = 4%N /\
  bsum (words_le ex_V 2) (fun xs => pathsum ex_m xs) = 10%N /\
  bsum (winit ex_m) (fun e => smul (snd e) (ex_b (fst e))) = 10%N.
Proof. vm_compute. repeat split; reflexivity. Qed.

(* the theorem instantiated: the hypotheses hold for the example *)
Example ex_total :
  bsum (winit ex_m) (fun e => smul (snd e) (ex_b (fst e)))
  = bsum (words_le ex_V 2) (fun xs => pathsum ex_m xs).
Proof.
  apply (total_weight_is_string_sum_le NSR ex_V ex_Q ex_m 2 ex_b).
  - exact (seq_NoDup 2 5).
  - exact (seq_NoDup 3 0).
  - intros ar Har. simpl in Har.
    destruct Har as [<-|[<-|[<-|[]]]]; eexists; (split; [reflexivity|]); simpl; auto.
  - intros ar Har. simpl in Har. destruct Har as [<-|[<-|[<-|[]]]]; simpl; auto.
  - intros e He. simpl in He. destruct He as [<-|[]]; simpl; auto.
  - exact ex_nilpotent.
  - exact ex_b_solves.
Qed.
Print Assumptions ex_total.
