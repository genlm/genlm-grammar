(* Conjugation of weighted automata in matrix form preserves the language
   (model/Conjugate.v; field_wfsa forward_conjugate / backward_conjugate / min).
   If F intertwines A and B (alpha_A = alpha_B F, F M^A_a = M^B_a F, omega_B = F omega_A) then
   A and B give every word the same weight.  The dual statement (M^A_a G = G M^B_a, ...) needs
   no second proof: a backward intertwining from A to B is a forward one from B to A; it is
   also reached the way Simple.backward_conjugate is written (reverse, conjugate forward,
   reverse back).  min is forward conjugation followed by backward conjugation.  The concrete
   conjugate (alpha P, F M_a P, F omega) is intertwined with the original automaton under
   "alpha = alpha P F" and "F M_a = F M_a P F", which in turn follow from  F P F = F  (true of
   any pseudo-inverse, in particular of a right inverse), alpha in the row space of F and the
   row space of F closed under every M_a.
   Everything holds over an arbitrary commutative semiring. *)
From Coq Require Import List ZArith.
From GV.lib Require Import Semiring BigSum.
From GV.model Require Import Conjugate.
Import ListNotations.
Local Open Scope sr_scope.

Section ConjugateProofs.
Variable S : SR.
Add Ring CjRing : (sth S).

Notation mauto := (mauto S).

(* associativity  (u M) . v = u . (M v):  the one exchange of sums every proof below needs *)

Lemma dot_assoc {X Y} (lx : list X) (ly : list Y) (u : X -> S) (M : X -> Y -> S) (v : Y -> S) :
  bsum ly (fun j => bsum lx (fun i => u i * M i j) * v j) = bsum lx (fun i => u i * bsum ly (fun j => M i j * v j)).
Proof.
  transitivity (bsum ly (fun j => bsum lx (fun i => u i * (M i j * v j)))).
  - apply bsum_ext. intros j _. rewrite <- bsum_mul_r. apply bsum_ext. intros i _. ring.
  - rewrite bsum_swap. apply bsum_ext. intros i _. apply bsum_mul_l.
Qed.

(* M^B_a (F v) = (M^B_a F) v = (F M^A_a) v = F (M^A_a v) *)
Theorem intertwine_act (F : nat -> nat -> S) (A B : mauto) :
  intertwines F A B ->
  forall w i, In i (dim B) -> mact B w i = bsum (dim A) (fun j => F i j * mact A w j).
Proof.
  intros [Hs [Hm Ho]] w. induction w as [|a t IH]; intros i Hi; simpl.
  - apply Ho, Hi.
  - transitivity (bsum (dim A) (fun j => bsum (dim B) (fun k => marc B a i k * F k j) * mact A t j)).
    + rewrite dot_assoc. apply bsum_ext. intros k Hk. rewrite (IH k Hk). reflexivity.
    + rewrite <- dot_assoc. apply bsum_ext. intros j Hj. rewrite (Hm a i j Hi Hj). reflexivity.
Qed.

Theorem conjugate_equivalent (F : nat -> nat -> S) (A B : mauto) :
  intertwines F A B -> forall w, mweight A w = mweight B w.
Proof.
  intros HF w. pose proof (intertwine_act F A B HF w) as Hact.
  destruct HF as [Hs [Hm Ho]]. unfold mweight.
  transitivity (bsum (dim A) (fun j => bsum (dim B) (fun i => mstart B i * F i j) * mact A w j)).
  - apply bsum_ext. intros j Hj. rewrite (Hs j Hj). reflexivity.
  - rewrite dot_assoc. apply bsum_ext. intros i Hi. rewrite (Hact i Hi). reflexivity.
Qed.

(* a backward intertwining from A to B is a forward intertwining from B to A *)
Lemma intertwines_back_iff (G : nat -> nat -> S) (A B : mauto) :
  intertwines_back G A B <-> intertwines G B A.
Proof.
  unfold intertwines_back, intertwines. split; intros [H1 [H2 H3]]; (split; [exact H1|split; [|exact H3]]);
    intros a i j Hi Hj; symmetry; apply H2; assumption.
Qed.

Theorem intertwine_act_back (G : nat -> nat -> S) (A B : mauto) :
  intertwines_back G A B ->
  forall w i, In i (dim A) -> mact A w i = bsum (dim B) (fun j => G i j * mact B w j).
Proof. intros HG. apply intertwine_act, intertwines_back_iff, HG. Qed.

Theorem conjugate_equivalent_backward (G : nat -> nat -> S) (A B : mauto) :
  intertwines_back G A B -> forall w, mweight A w = mweight B w.
Proof.
  intros HG w. symmetry. apply (conjugate_equivalent G B A). apply intertwines_back_iff, HG.
Qed.

Theorem min_equivalent (F G : nat -> nat -> S) (A B C : mauto) :
  intertwines F A B -> intertwines_back G B C -> forall w, mweight A w = mweight C w.
Proof.
  intros HF HG w. rewrite (conjugate_equivalent F A B HF w). apply (conjugate_equivalent_backward G B C HG).
Qed.

(* The reversed automaton: Simple.backward_conjugate is reverse.forward_conjugate().reverse *)

(* [mact] with the matrices and the final vector as arguments: the transposition lemma below is about arbitrary vectors *)
Fixpoint vact (d : list nat) (M : nat -> nat -> nat -> S) (w : list nat) (v : nat -> S) : nat -> S :=
  match w with
  | [] => v
  | a :: t => fun i => bsum d (fun j => M a i j * vact d M t v j)
  end.

Definition tr3 (M : nat -> nat -> nat -> S) : nat -> nat -> nat -> S := fun a i j => M a j i.

Lemma mact_vact (A : mauto) w i : mact A w i = vact (dim A) (marc A) w (mstop A) i.
Proof.
  revert i. induction w as [|a t IH]; intros i; simpl; [reflexivity|].
  apply bsum_ext. intros j _. rewrite IH. reflexivity.
Qed.

Lemma vact_app d M w1 w2 v i : vact d M (w1 ++ w2) v i = vact d M w1 (vact d M w2 v) i.
Proof.
  revert i. induction w1 as [|a t IH]; intros i; simpl; [reflexivity|].
  apply bsum_ext. intros j _. rewrite IH. reflexivity.
Qed.

(* u . (M_w v) = (M^T_{rev w} u) . v *)
Lemma dot_vact_transpose d M w :
  forall u v, bsum d (fun i => u i * vact d M w v i) = bsum d (fun i => vact d (tr3 M) (rev w) u i * v i).
Proof.
  induction w as [|a t IH]; intros u v; simpl; [reflexivity|].
  rewrite <- dot_assoc.
  transitivity (bsum d (fun j => vact d (tr3 M) [a] u j * vact d M t v j)).
  - apply bsum_ext. intros j _. f_equal. apply bsum_ext. intros i _. unfold tr3. ring.
  - rewrite IH. apply bsum_ext. intros i _. rewrite vact_app. reflexivity.
Qed.

Theorem mweight_reverse (A : mauto) w : mweight (mreverse A) (rev w) = mweight A w.
Proof.
  unfold mweight. simpl.
  transitivity (bsum (dim A) (fun i => vact (dim A) (tr3 (marc A)) (rev w) (mstart A) i * mstop A i)).
  - apply bsum_ext. intros i _. rewrite mact_vact. simpl. unfold tr3. ring.
  - rewrite <- dot_vact_transpose. apply bsum_ext. intros i _. rewrite mact_vact. reflexivity.
Qed.

Lemma mreverse_involutive_weight (A : mauto) w : mweight (mreverse (mreverse A)) w = mweight A w.
Proof.
  rewrite <- (mweight_reverse A w). rewrite <- (mweight_reverse (mreverse A) (rev w)).
  rewrite rev_involutive. reflexivity.
Qed.

(* reversal turns a forward intertwining around; reversing twice gives back the same statement *)
Lemma intertwines_reverse (F : nat -> nat -> S) (A B : mauto) :
  intertwines F A B -> intertwines (transpose F) (mreverse B) (mreverse A).
Proof.
  unfold intertwines, transpose. simpl. intros [H1 [H2 H3]]. split; [|split].
  - intros j Hj. rewrite (H3 j Hj). apply bsum_ext. intros i _. ring.
  - intros a i j Hi Hj.
    transitivity (bsum (dim B) (fun k => marc B a j k * F k i)); [apply bsum_ext; intros k _; ring|].
    rewrite <- (H2 a j i Hj Hi). apply bsum_ext. intros k _. ring.
  - intros i Hi. rewrite (H1 i Hi). apply bsum_ext. intros j _. ring.
Qed.

(* backward intertwining by G = forward intertwining of the reversed automata by G^T *)
Lemma intertwines_back_reverse (G : nat -> nat -> S) (A B : mauto) :
  intertwines_back G A B <-> intertwines (transpose G) (mreverse A) (mreverse B).
Proof.
  rewrite intertwines_back_iff.
  split; [apply intertwines_reverse|exact (intertwines_reverse (transpose G) (mreverse A) (mreverse B))].
Qed.

(* the statement of conjugate_equivalent_backward again, this time through the two reversals *)
Theorem conjugate_equivalent_backward_via_reverse (G : nat -> nat -> S) (A B : mauto) :
  intertwines_back G A B -> forall w, mweight A w = mweight B w.
Proof.
  intros HG w. apply intertwines_back_reverse in HG.
  rewrite <- (mweight_reverse A w), <- (mweight_reverse B w).
  apply (conjugate_equivalent _ _ _ HG).
Qed.

Section Concrete.
Variable A : mauto.
Variable dimB : list nat.

(* forward: F is (dimB x dim A), P is (dim A x dimB) *)
Section Forward.
Variables F P : nat -> nat -> S.

(* alpha = (alpha P) F *)
Definition start_in_rowspace : Prop :=
  forall j, In j (dim A) ->
    mstart A j = bsum dimB (fun i => bsum (dim A) (fun k => mstart A k * P k i) * F i j).
(* F M_a = (F M_a P) F *)
Definition rowspace_closed : Prop :=
  forall a i j, In i dimB -> In j (dim A) ->
    bsum (dim A) (fun k => F i k * marc A a k j)
    = bsum dimB (fun k' => bsum (dim A) (fun k => bsum (dim A) (fun l => F i k * marc A a k l * P l k')) * F k' j).

Theorem conj_intertwines :
  start_in_rowspace -> rowspace_closed -> intertwines F A (conj dimB F P A).
Proof.
  intros H1 H2. unfold intertwines. simpl. split; [|split].
  - exact H1.
  - exact H2.
  - intros i _. reflexivity.
Qed.

Theorem conj_equivalent :
  start_in_rowspace -> rowspace_closed -> forall w, mweight A w = mweight (conj dimB F P A) w.
Proof. intros H1 H2. apply (conjugate_equivalent F), conj_intertwines; assumption. Qed.

(* The two hypotheses from more primitive facts:  F P F = F  (first Moore-Penrose identity),
   alpha = c F for some c,  F M_a = N_a F for some N_a. *)
Definition FPF : Prop :=
  forall i j, In i dimB -> In j (dim A) ->
    bsum (dim A) (fun k => bsum dimB (fun k' => F i k * P k k' * F k' j)) = F i j.

(* a row vector u = c F is reproduced by F P F = F:  u = (u P) F *)
Lemma rowspace_fix (u c : nat -> S) :
  FPF -> (forall j, In j (dim A) -> u j = bsum dimB (fun i => c i * F i j)) ->
  forall j, In j (dim A) -> u j = bsum dimB (fun i => bsum (dim A) (fun k => u k * P k i) * F i j).
Proof.
  intros HP Hc j Hj. rewrite dot_assoc.
  transitivity (bsum (dim A) (fun k => bsum dimB (fun i' => c i' * F i' k) * bsum dimB (fun i => P k i * F i j)));
    [|apply bsum_ext; intros k Hk; rewrite (Hc k Hk); reflexivity].
  rewrite dot_assoc, (Hc j Hj). apply bsum_ext. intros i' Hi'. rewrite <- (HP i' j Hi' Hj). f_equal.
  apply bsum_ext. intros k _. rewrite <- bsum_mul_l. apply bsum_ext. intros i _. ring.
Qed.

Lemma start_in_rowspace_of (c : nat -> S) :
  FPF -> (forall j, In j (dim A) -> mstart A j = bsum dimB (fun i => c i * F i j)) -> start_in_rowspace.
Proof. intros HP Hc. exact (rowspace_fix (mstart A) c HP Hc). Qed.

(* the rows of F M_a *)
Lemma rowspace_closed_of (N : nat -> nat -> nat -> S) :
  FPF ->
  (forall a i j, In i dimB -> In j (dim A) ->
     bsum (dim A) (fun k => F i k * marc A a k j) = bsum dimB (fun n => N a i n * F n j)) ->
  rowspace_closed.
Proof.
  intros HP HN a i j Hi Hj.
  rewrite (rowspace_fix (fun j => bsum (dim A) (fun k => F i k * marc A a k j)) (N a i) HP
             (fun j' Hj' => HN a i j' Hi Hj') j Hj).
  apply bsum_ext. intros k' _. f_equal. rewrite bsum_swap. apply bsum_ext. intros l _. symmetry. apply bsum_mul_r.
Qed.

(* a right inverse (F P = I on dimB) satisfies F P F = F *)
Lemma FPF_of_right_inverse :
  NoDup dimB ->
  (forall i i', In i dimB -> In i' dimB ->
     bsum (dim A) (fun k => F i k * P k i') = if Nat.eqb i' i then 1 else 0) ->
  FPF.
Proof.
  intros Hnd HI i j Hi Hj. rewrite bsum_swap, <- (bsum_pick S dimB i (fun k' => F k' j) Hnd Hi).
  apply bsum_ext. intros k' Hk'.
  transitivity (bsum (dim A) (fun k => F i k * P k k') * F k' j); [rewrite <- bsum_mul_r; reflexivity|].
  rewrite (HI i k' Hi Hk'). destruct (Nat.eqb k' i); ring.
Qed.

Theorem conj_equivalent_pinv (c : nat -> S) (N : nat -> nat -> nat -> S) :
  FPF ->
  (forall j, In j (dim A) -> mstart A j = bsum dimB (fun i => c i * F i j)) ->
  (forall a i j, In i dimB -> In j (dim A) ->
     bsum (dim A) (fun k => F i k * marc A a k j) = bsum dimB (fun n => N a i n * F n j)) ->
  forall w, mweight A w = mweight (conj dimB F P A) w.
Proof.
  intros HP Hc HN. apply conj_equivalent.
  - apply (start_in_rowspace_of c HP Hc).
  - apply (rowspace_closed_of N HP HN).
Qed.
End Forward.

(* backward: G is (dim A x dimB), Q is (dimB x dim A) *)
Section Backward.
Variables G Q : nat -> nat -> S.

(* omega = G (Q omega) *)
Definition stop_in_colspace : Prop :=
  forall i, In i (dim A) ->
    mstop A i = bsum dimB (fun j => G i j * bsum (dim A) (fun k => Q j k * mstop A k)).
(* M_a G = G (Q M_a G) *)
Definition colspace_closed : Prop :=
  forall a i j, In i (dim A) -> In j dimB ->
    bsum (dim A) (fun k => marc A a i k * G k j)
    = bsum dimB (fun k' => G i k' * bsum (dim A) (fun k => bsum (dim A) (fun l => Q k' k * marc A a k l * G l j))).

Theorem conj_back_intertwines :
  stop_in_colspace -> colspace_closed -> intertwines_back G A (conj_back dimB G Q A).
Proof.
  intros H1 H2. unfold intertwines_back. simpl. split; [|split].
  - intros j _. reflexivity.
  - exact H2.
  - exact H1.
Qed.

Theorem conj_back_equivalent :
  stop_in_colspace -> colspace_closed -> forall w, mweight A w = mweight (conj_back dimB G Q A) w.
Proof. intros H1 H2. apply (conjugate_equivalent_backward G), conj_back_intertwines; assumption. Qed.
End Backward.
End Concrete.

(* min = forward_conjugate().backward_conjugate() *)
Theorem conj_min_equivalent (A : mauto) (dimB dimC : list nat) (F P G Q : nat -> nat -> S) :
  start_in_rowspace A dimB F P -> rowspace_closed A dimB F P ->
  stop_in_colspace (conj dimB F P A) dimC G Q -> colspace_closed (conj dimB F P A) dimC G Q ->
  forall w, mweight A w = mweight (conj_back dimC G Q (conj dimB F P A)) w.
Proof.
  intros H1 H2 H3 H4 w.
  apply (min_equivalent F G A (conj dimB F P A)).
  - apply conj_intertwines; assumption.
  - apply conj_back_intertwines; assumption.
Qed.

End ConjugateProofs.

(* a concrete instance over the rationals: two forward-equivalent states merged by
   F = [[1, 1]] with P = pinv(F) = [[1/2], [1/2]] *)

Section Example.
Let two : QcSR := mkq 2%Z 1%positive.
Let five : QcSR := mkq 5%Z 1%positive.
Let half : QcSR := mkq 1%Z 2%positive.

(* alpha = [1, 1],  M_0 = [[1, 2], [2, 1]],  omega = [2; 5] *)
Definition exA : mauto QcSR :=
  mkMauto [0%nat; 1%nat]
    (fun _ => 1)
    (fun _ i j => if Nat.eqb i j then 1 else two)
    (fun i => if Nat.eqb i 0%nat then two else five).
Definition exF : nat -> nat -> QcSR := fun _ _ => 1.
Definition exP : nat -> nat -> QcSR := fun _ _ => half.
Definition exB : mauto QcSR := conj [0%nat] exF exP exA.

Ltac qc := apply Qcanon.Qc_is_canon; vm_compute; reflexivity.

Example ex_start_in_rowspace : start_in_rowspace QcSR exA [0%nat] exF exP.
Proof. intros j [<-|[<-|[]]]; qc. Qed.

Example ex_rowspace_closed : rowspace_closed QcSR exA [0%nat] exF exP.
Proof. intros a i j [<-|[]] [<-|[<-|[]]]; qc. Qed.

Example ex_intertwines : intertwines exF exA exB.
Proof. apply conj_intertwines; [exact ex_start_in_rowspace|exact ex_rowspace_closed]. Qed.

(* the merged automaton is 1-state: start 1, M_0 = 3, stop 7 *)
Example ex_B_values : mstart exB 0%nat = 1 /\ marc exB 0%nat 0%nat 0%nat = mkq 3%Z 1%positive /\ mstop exB 0%nat = mkq 7%Z 1%positive.
Proof. repeat split; qc. Qed.

Example ex_weight_A : mweight exA [0%nat; 0%nat] = mkq 63%Z 1%positive.
Proof. qc. Qed.
Example ex_weight_B : mweight exB [0%nat; 0%nat] = mkq 63%Z 1%positive.
Proof. qc. Qed.

Example ex_equivalent : forall w, mweight exA w = mweight exB w.
Proof. apply conj_equivalent; [exact ex_start_in_rowspace|exact ex_rowspace_closed]. Qed.

(* the same instance through the F P F = F route, with c = [1] and N_0 = [[3]] *)
Lemma ex_FPF : FPF QcSR exA [0%nat] exF exP.
Proof. intros i j [<-|[]] [<-|[<-|[]]]; qc. Qed.
Lemma ex_start_cF : forall j, In j (dim exA) -> mstart exA j = bsum [0%nat] (fun i => 1 * exF i j).
Proof. intros j [<-|[<-|[]]]; qc. Qed.
Lemma ex_rows_NF : forall a i j, In i [0%nat] -> In j (dim exA) ->
  bsum (dim exA) (fun k => exF i k * marc exA a k j) = bsum [0%nat] (fun n => @smul QcSR (mkq 3%Z 1%positive) (exF n j)).
Proof. intros a i j [<-|[]] [<-|[<-|[]]]; qc. Qed.

Example ex_equivalent_pinv : forall w, mweight exA w = mweight exB w.
Proof.
  exact (conj_equivalent_pinv QcSR exA [0%nat] exF exP (fun _ => 1) (fun _ _ _ => mkq 3%Z 1%positive)
           ex_FPF ex_start_cF ex_rows_NF).
Qed.
End Example.

Print Assumptions intertwine_act.
Print Assumptions conjugate_equivalent.
Print Assumptions conjugate_equivalent_backward.
Print Assumptions conjugate_equivalent_backward_via_reverse.
Print Assumptions mweight_reverse.
Print Assumptions min_equivalent.
Print Assumptions conj_intertwines.
Print Assumptions conj_equivalent.
Print Assumptions conj_equivalent_pinv.
Print Assumptions FPF_of_right_inverse.
Print Assumptions conj_back_equivalent.
Print Assumptions conj_min_equivalent.
Print Assumptions ex_equivalent.
Print Assumptions ex_equivalent_pinv.
Print Assumptions ex_weight_A.
Print Assumptions ex_weight_B.
