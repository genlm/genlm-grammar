(* Equation-system semantics of CFG.unarycycleremove (cfg.py).
   Model (ucr): every nonterminal X lying on a unary cycle gets a fresh copy bot X; X keeps only
   the rules X -> bot X2 (weight K X X2, K the closure table of the unary weights restricted to
   the SCC of X) and bot X receives the rules of X except the intra-SCC unary ones; the other
   nonterminals keep their rules.  The SCC index scc, the set cyc of nonterminals on a cycle
   (in the code: not a one-element block without self-loop) and the closure table K (Lehmann's
   algorithm on each block) are parameters; what is assumed of K is its closure equation on each
   SCC (hypothesis HK).  Proved: every solution of the equations of the transformed grammar
   solves those of G on nts (ucr_restrict), through the description of one step of the
   transformed grammar at the three kinds of heads. *)
From Coq Require Import List Bool Lia ZArith Qcanon.
From GV.lib Require Import Semiring BigSum.
From GV.model Require Import Cfg.
From GV.proofs Require Import UnfoldProofs CkyProofs FoldProofs NullUnaryProofs.
Import ListNotations.
Local Open Scope sr_scope.

Section UnaryCycle.
Variable S : SR.
Add Ring UnaryCycleRing : (sth S).

Variable scc : nat -> nat.                (* G.buckets: SCC index in the unary graph *)
Variable cyc : nat -> bool.               (* X not in acyclic *)
Variable bot : nat -> nat.                (* (X, "bot") *)

Definition botn (X : nat) : nat := if cyc X then bot X else X.

(* intra-SCC unary rule: X -> Y with scc Y = scc X *)
Definition intra (r : rule S) : bool :=
  match rbody r with [N Y] => Nat.eqb (scc Y) (scc (rhead r)) | _ => false end.

(* CFG.add drops a rule of weight zero, so the code has no rule X1 -> bot X2 when K X1 X2 = 0;
   ucr keeps it (unaryremove and push_null_weights in model/Transform2.v model the filter).
   Such a rule adds zero to every equation, so ucr_restrict holds of either grammar. *)
Definition ucr (K : nat -> nat -> S) (nts : list nat) (G : grammar S) : grammar S :=
  flat_map (fun X1 => if cyc X1
                      then flat_map (fun X2 => if cyc X2 && Nat.eqb (scc X2) (scc X1)
                                               then [(K X1 X2, X1, [N (bot X2)])] else []) nts
                      else []) nts
  ++ flat_map (fun r => if intra r then [] else [(rw r, botn (rhead r), rbody r)]) G.

(* intra-SCC unary weight matrix *)
Definition Uin (G : grammar S) (X Y : nat) : S :=
  bsum G (fun r => if Nat.eqb (rhead r) X && intra r
                      && (match rbody r with [N Z] => Nat.eqb Z Y | _ => false end)
                   then rw r else 0).

(* X2 is a cyclic nonterminal of the SCC of X *)
Definition same (X X2 : nat) : bool := cyc X2 && Nat.eqb (scc X2) (scc X).

(* the part of one step of G that does not go through an intra-SCC unary rule *)
Definition NCpart (G : grammar S) (f : nat -> list nat -> S) (X : nat) (xs : list nat) : S :=
  bsum G (fun r => if intra r then 0 else term S f X xs r).

Lemma same_refl X : cyc X = true -> same X X = true.
Proof. intros H. unfold same. rewrite H, Nat.eqb_refl. reflexivity. Qed.

Lemma same_true X X2 : same X X2 = true -> cyc X2 = true /\ scc X2 = scc X.
Proof.
  unfold same. intros H. apply andb_true_iff in H. destruct H as [H1 H2].
  apply Nat.eqb_eq in H2. split; assumption.
Qed.

Lemma intra_body (r : rule S) :
  intra r = true -> exists Y, rbody r = [N Y] /\ scc Y = scc (rhead r).
Proof.
  unfold intra. destruct (rbody r) as [|[a|y] [|z t]]; intros H; try discriminate H.
  exists y. split; [reflexivity|apply Nat.eqb_eq; exact H].
Qed.

(* one step of the transformed grammar: the closure rules of the head, if it is a cyclic
   nonterminal of nts, and the moved rules *)
Lemma gstep_ucr K nts G f Z xs :
  gstep S (ucr K nts G) f Z xs
  = bsum nts (fun X1 => if Nat.eqb X1 Z
                        then (if cyc X1
                              then bsum nts (fun X2 => if same X1 X2 then K X1 X2 * f (bot X2) xs else 0)
                              else 0)
                        else 0)
    + bsum G (fun r => if intra r then 0
                       else if Nat.eqb (botn (rhead r)) Z then rw r * Wb f (rbody r) xs else 0).
Proof.
  unfold ucr. rewrite gstep_app, !gstep_flat_map. f_equal.
  - apply bsum_ext. intros X1 _. destruct (cyc X1); [|destruct (Nat.eqb X1 Z); reflexivity].
    rewrite gstep_flat_map. destruct (Nat.eqb X1 Z) eqn:EZ.
    + apply bsum_ext. intros X2 _. unfold same.
      destruct (cyc X2 && Nat.eqb (scc X2) (scc X1)); [|reflexivity].
      rewrite gstep_cons, gstep_nil, term_mk, EZ, Wb_N1. apply sadd_0_r.
    + apply bsum_zero. intros X2 _. destruct (cyc X2 && Nat.eqb (scc X2) (scc X1)); [|reflexivity].
      rewrite gstep_cons, gstep_nil, term_mk, EZ. apply sadd_0_r.
  - apply bsum_ext. intros r _. destruct (intra r); [reflexivity|].
    rewrite gstep_cons, gstep_nil, term_mk. apply sadd_0_r.
Qed.

(* a cyclic nonterminal of nts only heads rules whose body is one bot copy (the bot copies are
   not in nts); that no unary cycle is left is not stated *)
Theorem ucr_no_intra_cycle_rules K nts G :
  (forall X, ~ In (bot X) nts) ->
  forall r, In r (ucr K nts G) -> In (rhead r) nts -> cyc (rhead r) = true ->
  exists X2, rbody r = [N (bot X2)].
Proof.
  intros Hfresh r Hr Hin Hc. unfold ucr in Hr. apply in_app_or in Hr. destruct Hr as [Hr|Hr].
  - apply in_flat_map in Hr. destruct Hr as [X1 [_ Hr]].
    destruct (cyc X1); [|contradiction Hr].
    apply in_flat_map in Hr. destruct Hr as [X2 [_ Hr]].
    destruct (cyc X2 && Nat.eqb (scc X2) (scc X1)); [|contradiction Hr].
    destruct Hr as [Hr|[]]. subst r. exists X2. reflexivity.
  - exfalso. apply in_flat_map in Hr. destruct Hr as [r0 [_ Hr]].
    destruct (intra r0); [contradiction Hr|]. destruct Hr as [Hr|[]]. subst r.
    change (rhead (rw r0, botn (rhead r0), rbody r0)) with (botn (rhead r0)) in Hin, Hc.
    unfold botn in Hin, Hc. destruct (cyc (rhead r0)) eqn:E.
    + exact (Hfresh _ Hin).
    + rewrite E in Hc. discriminate Hc.
Qed.

Section Hyps.
Variable K : nat -> nat -> S.
Variable nts : list nat.
Variable G : grammar S.
Hypothesis Hnd : NoDup nts.
Hypothesis Hheads : forall r, In r G -> In (rhead r) nts.
Hypothesis Hbody : forall r Y, In r G -> In (N Y) (rbody r) -> In Y nts.
Hypothesis Hinj : forall X Y, bot X = bot Y -> X = Y.
Hypothesis Hfresh : forall X, ~ In (bot X) nts.
Hypothesis Hintra : forall r, In r G -> intra r = true ->
  cyc (rhead r) = true /\ (forall Y, rbody r = [N Y] -> cyc Y = true).

(* which heads botn sends to a given head of the transformed grammar: an old name is hit by
   itself if it is acyclic and by nothing otherwise, a bot copy by the nonterminal it copies *)
Lemma botn_eqb_nts Y X : In X nts -> Nat.eqb (botn Y) X = negb (cyc X) && Nat.eqb Y X.
Proof.
  intros HX. unfold botn. destruct (cyc Y) eqn:E.
  - rewrite (proj2 (Nat.eqb_neq (bot Y) X)) by (intros E2; apply (Hfresh Y); rewrite E2; exact HX).
    destruct (Nat.eqb_spec Y X) as [<-|_]; [rewrite E; reflexivity|symmetry; apply andb_false_r].
  - destruct (Nat.eqb_spec Y X) as [<-|_]; [rewrite E; reflexivity|symmetry; apply andb_false_r].
Qed.

Lemma botn_eqb_bot Y X : In Y nts -> cyc X = true -> Nat.eqb (botn Y) (bot X) = Nat.eqb Y X.
Proof.
  intros HY Hc. unfold botn. destruct (cyc Y) eqn:E.
  - destruct (Nat.eqb_spec Y X) as [<-|E1]; [apply Nat.eqb_refl|].
    apply Nat.eqb_neq. intros E2. exact (E1 (Hinj _ _ E2)).
  - destruct (Nat.eqb_spec Y X) as [<-|_]; [rewrite E in Hc; discriminate Hc|].
    apply Nat.eqb_neq. intros E2. apply (Hfresh X). rewrite <- E2. exact HY.
Qed.

Lemma ucr_step_acyclic_sec f X xs :
  In X nts -> cyc X = false -> gstep S (ucr K nts G) f X xs = NCpart G f X xs.
Proof.
  intros HX Hc. rewrite gstep_ucr, (bsum_zero S nts), sadd_0_l.
  - unfold NCpart. apply bsum_ext. intros r Hr. destruct (intra r); [reflexivity|].
    unfold term. rewrite (botn_eqb_nts (rhead r) X HX), Hc. reflexivity.
  - intros X1 _. destruct (Nat.eqb_spec X1 X) as [->|_]; [rewrite Hc|]; reflexivity.
Qed.

Lemma ucr_step_cyclic_sec f X xs :
  In X nts -> cyc X = true ->
  gstep S (ucr K nts G) f X xs
  = bsum nts (fun X2 => if same X X2 then K X X2 * f (bot X2) xs else 0).
Proof.
  intros HX Hc. rewrite gstep_ucr, (bsum_zero S G), sadd_0_r.
  - rewrite (bsum_pick S nts X _ Hnd HX), Hc. reflexivity.
  - intros r Hr. destruct (intra r); [reflexivity|].
    rewrite (botn_eqb_nts (rhead r) X HX), Hc. reflexivity.
Qed.

Lemma ucr_step_bot_sec f X xs :
  cyc X = true -> gstep S (ucr K nts G) f (bot X) xs = NCpart G f X xs.
Proof.
  intros Hc. rewrite gstep_ucr, (bsum_zero S nts), sadd_0_l.
  - unfold NCpart. apply bsum_ext. intros r Hr. destruct (intra r); [reflexivity|].
    unfold term. rewrite (botn_eqb_bot (rhead r) X (Hheads r Hr) Hc). reflexivity.
  - intros X1 HX1. destruct (Nat.eqb_spec X1 (bot X)) as [->|_]; [destruct (Hfresh X HX1)|reflexivity].
Qed.

Lemma gstep_intra_split_sec f X xs :
  gstep S G f X xs = bsum nts (fun Y => Uin G X Y * f Y xs) + NCpart G f X xs.
Proof.
  apply (gstep_unary_part S intra
           (fun r Y => if Nat.eqb (rhead r) X && intra r
                          && (match rbody r with [N Z] => Nat.eqb Z Y | _ => false end)
                       then rw r else 0) G nts f X xs Hnd).
  - intros r Hr Ei. destruct (intra_body r Ei) as [Y0 [Eb _]]. exists Y0.
    split; [exact Eb|]. split; [apply (Hbody r Y0 Hr); rewrite Eb; left; reflexivity|].
    intros Y. rewrite Ei, Eb, andb_true_r. reflexivity.
  - intros r Y _ Ei. rewrite Ei, andb_false_r. reflexivity.
Qed.

(* Uin only relates cyclic nonterminals of one SCC *)
Lemma Uin_zero X Y : same X Y = false -> Uin G X Y = 0.
Proof.
  intros Hs. unfold Uin. apply bsum_zero. intros r Hr.
  destruct (Nat.eqb_spec (rhead r) X) as [E|E]; [|reflexivity].
  destruct (intra r) eqn:Ei; [|reflexivity]. cbn [andb].
  destruct (intra_body r Ei) as [Y0 [Eb Esc]]. rewrite Eb.
  destruct (Nat.eqb_spec Y0 Y) as [E2|E2]; [|reflexivity].
  exfalso. subst Y0. destruct (Hintra r Hr Ei) as [_ Hc]. specialize (Hc Y Eb).
  unfold same in Hs. rewrite Hc, Esc, E, Nat.eqb_refl in Hs. discriminate Hs.
Qed.

Lemma Uin_acyclic X Y : cyc X = false -> Uin G X Y = 0.
Proof.
  intros Hc. unfold Uin. apply bsum_zero. intros r Hr.
  destruct (Nat.eqb_spec (rhead r) X) as [E|E]; [|reflexivity].
  destruct (intra r) eqn:Ei; [|reflexivity].
  exfalso. destruct (Hintra r Hr Ei) as [Hc' _]. rewrite E, Hc in Hc'. discriminate Hc'.
Qed.

Hypothesis HK : forall X X2, In X nts -> In X2 nts -> cyc X = true -> cyc X2 = true -> scc X2 = scc X ->
  K X X2 = (if Nat.eqb X X2 then 1 else 0)
           + bsum nts (fun Y => if same X Y then Uin G X Y * K Y X2 else 0).

Variable f' : nat -> list nat -> S.
Hypothesis Hsol : solves S (ucr K nts G) f'.

Lemma sol_acyclic X xs : In X nts -> cyc X = false -> f' X xs = NCpart G f' X xs.
Proof. intros HX Hc. rewrite (Hsol X xs). apply ucr_step_acyclic_sec; assumption. Qed.

Lemma sol_bot X xs : cyc X = true -> f' (bot X) xs = NCpart G f' X xs.
Proof. intros Hc. rewrite (Hsol (bot X) xs). apply ucr_step_bot_sec; assumption. Qed.

(* the cyclic nonterminals of the SCC of X *)
Local Notation cls X := (filter (same X) nts).

Lemma cls_eq X Y : same X Y = true -> cls Y = cls X.
Proof.
  intros H. apply filter_ext. intros Z. destruct (same_true X Y H) as [_ E].
  unfold same. rewrite E. reflexivity.
Qed.

Lemma sol_cyclic X xs : In X nts -> cyc X = true ->
  f' X xs = bsum (cls X) (fun X2 => K X X2 * NCpart G f' X2 xs).
Proof.
  intros HX Hc. rewrite (Hsol X xs), (ucr_step_cyclic_sec f' X xs HX Hc), bsum_filter.
  apply bsum_ext. intros X2 _. destruct (same X X2) eqn:Es; [|reflexivity].
  destruct (same_true X X2 Es) as [Hc2 _]. rewrite (sol_bot X2 xs Hc2). reflexivity.
Qed.

(* K is the closure of Uin on the SCC of X: the closure rules of X into the bot copies give X
   its non-intra part plus Uin applied to the values on its SCC *)
Theorem ucr_restrict X xs : In X nts -> f' X xs = gstep S G f' X xs.
Proof.
  intros HX. rewrite gstep_intra_split_sec. destruct (cyc X) eqn:Hc.
  - assert (HXc : In X (cls X)) by (apply filter_In; split; [exact HX|apply same_refl; exact Hc]).
    rewrite (sol_cyclic X xs HX Hc).
    rewrite (closure_apply S (cls X) K (Uin G) (fun X2 => NCpart G f' X2 xs) X (NoDup_filter _ Hnd) HXc).
    + rewrite (bsum_ext S (cls X) _ (fun Z => Uin G X Z * f' Z xs)).
      * rewrite bsum_filter.
        rewrite (bsum_ext S nts _ (fun Y => Uin G X Y * f' Y xs)); [ring|].
        intros Y _. destruct (same X Y) eqn:Es; [reflexivity|]. rewrite (Uin_zero X Y Es). ring.
      * intros Z HZ. apply filter_In in HZ. destruct HZ as [HZ Es].
        rewrite (sol_cyclic Z xs HZ (proj1 (same_true X Z Es))), (cls_eq X Z Es). reflexivity.
    + intros X2 HX2. apply filter_In in HX2. destruct HX2 as [HX2 Es].
      destruct (same_true X X2 Es) as [Hc2 Esc].
      rewrite (HK X X2 HX HX2 Hc Hc2 Esc), bsum_filter. reflexivity.
  - rewrite (sol_acyclic X xs HX Hc), bsum_zero, sadd_0_l; [reflexivity|].
    intros Y _. rewrite (Uin_acyclic X Y Hc). apply smul_0_l.
Qed.

End Hyps.
End UnaryCycle.

(* the step lemmas with every hypothesis explicit: one step of the transformed grammar at an
   acyclic nonterminal, at a cyclic one and at a bot copy, for every valuation; one step of G as
   its intra-SCC unary part plus the rest *)
Theorem ucr_step_acyclic :
  forall (S : SR) (scc : nat -> nat) (cyc : nat -> bool) (bot : nat -> nat)
         (K : nat -> nat -> S) (nts : list nat) (G : grammar S)
         (f : nat -> list nat -> S) (X : nat) (xs : list nat),
    (forall X, ~ In (bot X) nts) ->
    In X nts -> cyc X = false ->
    gstep S (ucr S scc cyc bot K nts G) f X xs = NCpart S scc G f X xs.
Proof. intros S scc cyc bot K nts G f X xs Hfresh HX Hc. apply ucr_step_acyclic_sec; assumption. Qed.

Theorem ucr_step_cyclic :
  forall (S : SR) (scc : nat -> nat) (cyc : nat -> bool) (bot : nat -> nat)
         (K : nat -> nat -> S) (nts : list nat) (G : grammar S)
         (f : nat -> list nat -> S) (X : nat) (xs : list nat),
    NoDup nts ->
    (forall X, ~ In (bot X) nts) ->
    In X nts -> cyc X = true ->
    gstep S (ucr S scc cyc bot K nts G) f X xs
    = bsum nts (fun X2 => if cyc X2 && Nat.eqb (scc X2) (scc X) then K X X2 * f (bot X2) xs else 0).
Proof. intros S scc cyc bot K nts G f X xs Hnd Hfresh HX Hc. apply ucr_step_cyclic_sec; assumption. Qed.

Theorem ucr_step_bot :
  forall (S : SR) (scc : nat -> nat) (cyc : nat -> bool) (bot : nat -> nat)
         (K : nat -> nat -> S) (nts : list nat) (G : grammar S)
         (f : nat -> list nat -> S) (X : nat) (xs : list nat),
    (forall r, In r G -> In (rhead r) nts) ->
    (forall X Y, bot X = bot Y -> X = Y) ->
    (forall X, ~ In (bot X) nts) ->
    cyc X = true ->
    gstep S (ucr S scc cyc bot K nts G) f (bot X) xs = NCpart S scc G f X xs.
Proof. intros S scc cyc bot K nts G f X xs Hh Hinj Hfresh Hc. apply ucr_step_bot_sec; assumption. Qed.

Theorem gstep_intra_split :
  forall (S : SR) (scc : nat -> nat) (nts : list nat) (G : grammar S)
         (f : nat -> list nat -> S) (X : nat) (xs : list nat),
    NoDup nts ->
    (forall r Y, In r G -> In (N Y) (rbody r) -> In Y nts) ->
    gstep S G f X xs = bsum nts (fun Y => Uin S scc G X Y * f Y xs) + NCpart S scc G f X xs.
Proof. intros S scc nts G f X xs Hnd Hb. apply gstep_intra_split_sec; assumption. Qed.

Print Assumptions ucr_no_intra_cycle_rules.
Print Assumptions ucr_step_acyclic.
Print Assumptions ucr_step_cyclic.
Print Assumptions ucr_step_bot.
Print Assumptions gstep_intra_split.
Print Assumptions ucr_restrict.

(* a concrete instance over Qc:
   0 -> 1 (1/2), 1 -> 0 (1/2), 1 -> t5 (1/3), 2 -> 0 t6 (1/5): {0, 1} is a unary cycle, 2 is acyclic.
   K is the closure of the unary weights on {0, 1}: star (1/2 * 1/2) = 4/3. *)
Definition ex_scc (X : nat) : nat := match X with O | 1%nat => O | _ => 1%nat end.
Definition ex_cyc (X : nat) : bool := Nat.ltb X 2.
Definition ex_bot (X : nat) : nat := (X + 10)%nat.
Definition ex_nts : list nat := [O; 1%nat; 2%nat].
Definition ex_G : grammar QcSR :=
  [ (mkq 1%Z 2%positive, O, [N 1%nat]); (mkq 1%Z 2%positive, 1%nat, [N O]);
    (mkq 1%Z 3%positive, 1%nat, [T 5%nat]); (mkq 1%Z 5%positive, 2%nat, [N O; T 6%nat]) ].
Definition ex_K (X Y : nat) : QcSR :=
  match X, Y with
  | O, O => mkq 4%Z 3%positive | O, 1%nat => mkq 2%Z 3%positive
  | 1%nat, O => mkq 2%Z 3%positive | 1%nat, 1%nat => mkq 4%Z 3%positive
  | _, _ => mkq 0%Z 1%positive
  end.

(* four closure rules into the bot copies, the non-intra rule of 1 moved to its bot copy 11,
   the rule of the acyclic nonterminal 2 kept, the two cycle rules 0 -> 1 and 1 -> 0 gone *)
Example ucr_example :
  ucr QcSR ex_scc ex_cyc ex_bot ex_K ex_nts ex_G
  = [ (mkq 4%Z 3%positive, O, [N 10%nat]); (mkq 2%Z 3%positive, O, [N 11%nat]);
      (mkq 2%Z 3%positive, 1%nat, [N 10%nat]); (mkq 4%Z 3%positive, 1%nat, [N 11%nat]);
      (mkq 1%Z 3%positive, 11%nat, [T 5%nat]); (mkq 1%Z 5%positive, 2%nat, [N O; T 6%nat]) ].
Proof. vm_compute. reflexivity. Qed.

(* no unary rule between the cyclic nonterminals 0 and 1 is left *)
Example ucr_example_no_cycle_rule :
  forallb (fun r : rule QcSR => match rbody r with
                                | [N Y] => negb (Nat.ltb (rhead r) 2 && Nat.ltb Y 2)
                                | _ => true
                                end)
          (ucr QcSR ex_scc ex_cyc ex_bot ex_K ex_nts ex_G) = true.
Proof. vm_compute. reflexivity. Qed.

(* the hypotheses of ucr_restrict hold for this instance, hence its conclusion *)
Example ucr_example_restrict :
  forall f', solves QcSR (ucr QcSR ex_scc ex_cyc ex_bot ex_K ex_nts ex_G) f' ->
  forall X xs, In X ex_nts -> f' X xs = gstep QcSR ex_G f' X xs.
Proof.
  apply ucr_restrict.
  - repeat constructor; cbn; intuition discriminate.
  - intros r Hr. cbn in Hr. destruct Hr as [<-|[<-|[<-|[<-|[]]]]]; cbn; auto.
  - intros r Y Hr HY. cbn in Hr.
    destruct Hr as [<-|[<-|[<-|[<-|[]]]]]; cbn in HY;
      repeat (destruct HY as [HY|HY]; [try discriminate HY; injection HY as <-; cbn; auto|]);
      contradiction.
  - unfold ex_bot. intros X Y E. lia.
  - unfold ex_bot, ex_nts. intros X H. cbn in H. lia.
  - intros r Hr Hi. cbn in Hr.
    destruct Hr as [<-|[<-|[<-|[<-|[]]]]]; try discriminate Hi;
      (split; [reflexivity|intros Y E; injection E as <-; reflexivity]).
  - intros X X2 HX HX2 Hc Hc2 _. cbn in HX, HX2.
    destruct HX as [<-|[<-|[<-|[]]]]; try discriminate Hc;
      destruct HX2 as [<-|[<-|[<-|[]]]]; try discriminate Hc2;
      apply Qc_is_canon; vm_compute; reflexivity.
Qed.

Print Assumptions ucr_example.
Print Assumptions ucr_example_no_cycle_rule.
Print Assumptions ucr_example_restrict.
