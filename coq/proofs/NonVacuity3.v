(* Non-vacuity of the property theorems C10_diag, C10_projections, C12_star and C17_cfg_to_bytes, in the style of
   NonVacuity.v: every hypothesis is stated literally for a concrete instance, as a lemma beside the example object (which
   each statement also spells out as its first conjunct); an Example first applies the property theorem to these lemmas ([R])
   and then lists, conjunct by conjunct, the lemmas, [R], and evaluated values.  C13_trim_search has no hypotheses: its
   example shows the conclusions on a machine with a dead end and an unreachable state. *)
From Coq Require Import List Arith BinNat.
From GV.lib Require Import Semiring BigSum.
From GV.model Require Import Cfg Fst Wfsa WfsaEps Bytes.
From GV.model Require TrimSearch.
From GV.model Require Import TrimW.
From GV.proofs Require Import TrimWProofs.
From GV.gen Require Gen_CfgBytes.
From GV.proofs Require FstOpsProofs StarStringProofs CfgBytesProofs TrimSearchProofs ProductProofs RationalOps.
From GV.proofs Require Import NonVacuity.
From GV.props Require C10 C12 C13 C17.
Import ListNotations.
Local Open Scope nat_scope.

(* ex_A (proofs/FstOpsProofs.v): one state 0, initial and final with weight 1, a loop 0 -0-> 0 of weight 2 *)
Lemma ex_A_eps_free : Wfsa.eps_free FstOpsProofs.ex_A.
Proof. intros ar [<-|[]]. discriminate. Qed.

Lemma le_2_3 : length [0; 0] <= 3.
Proof. apply Nat.leb_le. reflexivity. Qed.

Example C10_diag_nonvacuous :
  FstOpsProofs.ex_A = @mkW NSR [(0, 1%N)] [(0, 1%N)] [(0, Some 0, 0, 2%N)] /\
  Wfsa.eps_free FstOpsProofs.ex_A /\
  length [0; 0] <= 3 /\
  trel (FstOpsProofs.diag FstOpsProofs.ex_A) 3 [0; 0] [0; 0]
    = (if Cfg.list_eqb Nat.eqb [0; 0] [0; 0] then Wfsa.pathsum FstOpsProofs.ex_A [0; 0] else s0) /\
  trel (FstOpsProofs.diag FstOpsProofs.ex_A) 3 [0; 0] [0]
    = (if Cfg.list_eqb Nat.eqb [0; 0] [0] then Wfsa.pathsum FstOpsProofs.ex_A [0; 0] else s0) /\
  trel (FstOpsProofs.diag FstOpsProofs.ex_A) 3 [0; 0] [0; 0] = 4%N /\
  Wfsa.pathsum FstOpsProofs.ex_A [0; 0] = 4%N /\
  trel (FstOpsProofs.diag FstOpsProofs.ex_A) 3 [0; 0] [0] = 0%N.
Proof.
  pose proof (C10.C10_diag NSR FstOpsProofs.ex_A ex_A_eps_free 3 [0; 0]) as R.
  refine (conj eq_refl (conj ex_A_eps_free (conj le_2_3 (conj (R [0; 0] le_2_3) (conj (R [0] le_2_3) _))))).
  repeat apply conj; vm_compute; reflexivity.
Qed.

(* ex_m (proofs/FstOpsProofs.v): 0 -0:2-> 1 (weight 2), 1 -1:eps-> 2 (weight 3); initial 0, final 2.
   Every arc reads a symbol; the written symbols (only 2) are in V = [0; 1; 2]. *)
Lemma ex_m_reads : forall ar, In ar (tarcs FstOpsProofs.ex_m) -> exists x, tin ar = Some x.
Proof. intros ar [<-|[<-|[]]]; eexists; reflexivity. Qed.
Lemma ex_m_writes : forall ar y, In ar (tarcs FstOpsProofs.ex_m) -> tout ar = Some y -> In y [0; 1; 2].
Proof.
  intros ar y [<-|[<-|[]]] E; [injection E as <-; right; right; left; reflexivity|discriminate E].
Qed.

Example C10_projections_nonvacuous :
  FstOpsProofs.ex_m = @mkT NSR [(0, 1%N)] [(2, 1%N)] [(0, Some 0, Some 2, 1, 2%N); (1, Some 1, None, 2, 3%N)] /\
  NoDup [0; 1; 2] /\
  (forall ar, In ar (tarcs FstOpsProofs.ex_m) -> exists x, tin ar = Some x) /\
  (forall ar y, In ar (tarcs FstOpsProofs.ex_m) -> tout ar = Some y -> In y [0; 1; 2]) /\
  Wfsa.pathsum (FstOpsProofs.project_in FstOpsProofs.ex_m) [0; 1]
    = bsum (ProductProofs.words_le [0; 1; 2] (length [0; 1])) (fun ys => trel FstOpsProofs.ex_m (length [0; 1]) [0; 1] ys) /\
  Wfsa.pathsum (FstOpsProofs.project_in FstOpsProofs.ex_m) [0; 1] = 6%N /\
  bsum (ProductProofs.words_le [0; 1; 2] 2) (fun ys => trel FstOpsProofs.ex_m 2 [0; 1] ys) = 6%N /\
  trel FstOpsProofs.ex_m 2 [0; 1] [2] = 6%N.
Proof.
  pose proof (proj1 (C10.C10_projections NSR [0; 1; 2] FstOpsProofs.ex_m nodup3) ex_m_reads ex_m_writes [0; 1]) as R.
  refine (conj eq_refl (conj nodup3 (conj ex_m_reads (conj ex_m_writes (conj R _))))).
  repeat apply conj; vm_compute; reflexivity.
Qed.

(* ex_acc (proofs/StarStringProofs.v): 0 -7-> 1 of weight 2, initial 0, final 1; the string 7 7 is two iterations *)
Lemma ex_acc_eps_free : forall ar, In ar (warcs StarStringProofs.ex_acc) -> albl ar <> None.
Proof. intros ar [<-|[]]. discriminate. Qed.
Lemma ex_acc_init_not_final :
  forall i f, In i (winit StarStringProofs.ex_acc) -> In f (wfinal StarStringProofs.ex_acc) -> fst i <> fst f.
Proof. intros i f [<-|[]] [<-|[]]. discriminate. Qed.

Lemma lt_4_9 : 2 * length [7; 7] < 9.
Proof. apply Nat.ltb_lt. reflexivity. Qed.

Example C12_star_nonvacuous :
  StarStringProofs.ex_acc = @mkW NSR [(0, 1%N)] [(1, 1%N)] [(0, Some 7, 1, 2%N)] /\
  (forall ar, In ar (warcs StarStringProofs.ex_acc) -> albl ar <> None) /\
  (forall i f, In i (winit StarStringProofs.ex_acc) -> In f (wfinal StarStringProofs.ex_acc) -> fst i <> fst f) /\
  2 * length [7; 7] < 9 /\
  pathsum_e (wstar StarStringProofs.ex_acc) 9 [7; 7]
    = sadd (match [7; 7] with [] => s1 | _ => s0 end) (RationalOps.kplus StarStringProofs.ex_acc (length [7; 7]) [7; 7]) /\
  pathsum_e (wstar StarStringProofs.ex_acc) 9 [7; 7] = 4%N /\
  RationalOps.kplus StarStringProofs.ex_acc 2 [7; 7] = 4%N /\
  Wfsa.pathsum StarStringProofs.ex_acc [7; 7] = 0%N.
Proof.
  pose proof (C12.C12_star NSR StarStringProofs.ex_acc [7; 7] ex_acc_eps_free ex_acc_init_not_final 9 lt_4_9) as R.
  refine (conj eq_refl (conj ex_acc_eps_free (conj ex_acc_init_not_final (conj lt_4_9 (conj R _))))).
  repeat apply conj; vm_compute; reflexivity.
Qed.

(* ex_enc, ex_G (proofs/CfgBytesProofs.v): symbol 0 is the byte 10, symbol 1 the two bytes 11 12;
   0 -> T1 N1 (2);  1 -> T0 (3) | eps (5).  The bytes 11 12 10 decode to 1 0 only; the byte 11 alone is truncated. *)
Lemma bytes_enc_nonempty : forall a, In a [0; 1] -> CfgBytesProofs.ex_enc a <> [].
Proof. intros a [<-|[<-|[]]]; discriminate. Qed.
Lemma bytes_G_terms : forall (r : rule NSR) a, In r CfgBytesProofs.ex_G -> In (T a) (rbody r) -> In a [0; 1].
Proof. apply terms_inb_ok. reflexivity. Qed.

Lemma le_3_3 : length [11; 12; 10] <= 3.
Proof. apply Nat.leb_le. reflexivity. Qed.
Lemma le_1_3 : length [11] <= 3.
Proof. apply Nat.leb_le. reflexivity. Qed.
Lemma bytes_11_undecodable : decodings CfgBytesProofs.ex_enc [0; 1] 3 [11] = [].
Proof. vm_compute. reflexivity. Qed.

Example C17_cfg_to_bytes_nonvacuous :
  CfgBytesProofs.ex_G = [ (2%N, 0, [T 1; N 1]); (3%N, 1, [T 0]); (5%N, 1, []) ] /\
  CfgBytesProofs.ex_enc 0 = [10] /\ CfgBytesProofs.ex_enc 1 = [11; 12] /\
  NoDup [0; 1] /\
  (forall a, In a [0; 1] -> CfgBytesProofs.ex_enc a <> []) /\
  (forall (r : rule NSR) a, In r CfgBytesProofs.ex_G -> In (T a) (rbody r) -> In a [0; 1]) /\
  length [11; 12; 10] <= 3 /\ length [11] <= 3 /\
  W (Gen_CfgBytes.gen_cfg_to_bytes NSR CfgBytesProofs.ex_enc CfgBytesProofs.ex_G) 3 0 [11; 12; 10]
    = bsum (decodings CfgBytesProofs.ex_enc [0; 1] 3 [11; 12; 10]) (fun xs => W CfgBytesProofs.ex_G 3 0 xs) /\
  decodings CfgBytesProofs.ex_enc [0; 1] 3 [11; 12; 10] = [[1; 0]] /\
  W (Gen_CfgBytes.gen_cfg_to_bytes NSR CfgBytesProofs.ex_enc CfgBytesProofs.ex_G) 3 0 [11; 12; 10] = 6%N /\
  W CfgBytesProofs.ex_G 3 0 [1; 0] = 6%N /\
  decodings CfgBytesProofs.ex_enc [0; 1] 3 [11] = [] /\
  W (Gen_CfgBytes.gen_cfg_to_bytes NSR CfgBytesProofs.ex_enc CfgBytesProofs.ex_G) 3 0 [11] = s0 /\
  W (Gen_CfgBytes.gen_cfg_to_bytes NSR CfgBytesProofs.ex_enc CfgBytesProofs.ex_G) 3 0 [11] = 0%N.
Proof.
  pose proof (C17.C17_cfg_to_bytes NSR CfgBytesProofs.ex_enc [0; 1] nodup01 bytes_enc_nonempty CfgBytesProofs.ex_G bytes_G_terms 3 0) as R.
  refine (conj eq_refl (conj eq_refl (conj eq_refl (conj nodup01 (conj bytes_enc_nonempty (conj bytes_G_terms
          (conj le_3_3 (conj le_1_3 (conj (proj1 (R [11; 12; 10] 3 le_3_3)) (conj CfgBytesProofs.ex_decodings (conj _
          (conj CfgBytesProofs.ex_sym_W (conj bytes_11_undecodable (conj (proj2 (R [11] 3 le_1_3) bytes_11_undecodable) _))))))))))))));
    vm_compute; reflexivity.
Qed.

(* ts_ex (proofs/TrimSearchProofs.v): init 0, final 2;  0 -5-> 1 (2), 1 -6-> 2 (3), 1 -7-> 3 (1) [3 is a dead end],
   4 -5-> 2 (1) [4 is unreachable]. *)
Lemma ts_ex_3_accessible : In 3 (TrimSearch.accessible TrimSearchProofs.ts_ex).
Proof. rewrite TrimSearchProofs.ts_ex_accessible. left. reflexivity. Qed.
Lemma ts_ex_3_not_coaccessible : inb 3 (TrimSearch.coaccessible TrimSearchProofs.ts_ex) = false.
Proof. rewrite TrimSearchProofs.ts_ex_coaccessible. reflexivity. Qed.

Example C13_trim_search_weight_nonvacuous :
  weight (TrimSearch.trim_model TrimSearchProofs.ts_ex) [5; 6] = weight TrimSearchProofs.ts_ex [5; 6] /\
  weight (TrimSearch.trim_model TrimSearchProofs.ts_ex) [5; 6] = 6%N /\
  weight TrimSearchProofs.ts_ex [5; 6] = 6%N /\
  (In 3 (TrimSearch.accessible TrimSearchProofs.ts_ex) <->
     exists e, In e (winit TrimSearchProofs.ts_ex) /\ TrimSearchProofs.path_to TrimSearchProofs.ts_ex (fst e) 3) /\
  In 3 (TrimSearch.accessible TrimSearchProofs.ts_ex) /\
  inb 3 (TrimSearch.coaccessible TrimSearchProofs.ts_ex) = false /\
  dead NSR TrimSearchProofs.ts_ex 3 /\
  TrimSearch.active TrimSearchProofs.ts_ex = [2; 1; 0] /\
  length (warcs TrimSearchProofs.ts_ex) = 4 /\ length (warcs (TrimSearch.trim_model TrimSearchProofs.ts_ex)) = 2.
Proof.
  pose proof (C13.C13_trim_search NSR TrimSearchProofs.ts_ex) as R.
  exact (conj (proj1 R [5; 6]) (conj (proj1 TrimSearchProofs.ts_ex_weight) (conj (proj2 TrimSearchProofs.ts_ex_weight)
          (conj (proj1 (proj2 R) 3) (conj ts_ex_3_accessible (conj ts_ex_3_not_coaccessible
          (conj (proj2 (proj2 (proj2 (proj2 R))) 3 ts_ex_3_not_coaccessible)
          (conj TrimSearchProofs.ts_ex_active (conj eq_refl TrimSearchProofs.ts_ex_arcs))))))))).
Qed.

Print Assumptions C10_diag_nonvacuous.
Print Assumptions C10_projections_nonvacuous.
Print Assumptions C12_star_nonvacuous.
Print Assumptions C17_cfg_to_bytes_nonvacuous.
Print Assumptions C13_trim_search_weight_nonvacuous.
