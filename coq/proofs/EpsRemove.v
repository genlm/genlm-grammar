(* Epsilon removal (WFSA.epsremove).  The result has no epsilon arcs and, for ANY table K,
   computes the matrix form alpha K A_x1 K ... A_xn K omega, which for K = identity is the
   plain path sum.  For an epsilon-acyclic automaton and a table K with K = I + E K, epsilon
   removal preserves the weight of every string (sum over all paths, epsilon arcs included). *)
From Coq Require Import List Arith Bool Lia.
From GV.lib Require Import Semiring BigSum.
From GV.model Require Import Linear Wfsa WfsaEps EpsSpec.
From GV.proofs Require Import WfsaProofs LehmannProof ClosureExtra.
Import ListNotations.
Local Open Scope sr_scope.

Section EpsRemove.
Variable S : StarSR.

Lemma winit_epsremove (K : mat S) (m : wfsa S) :
  winit (epsremove_with K m)
  = flat_map (fun e => map (fun k => (k, snd e * mget K (fst e) k)) (states_of m)) (winit m).
Proof. reflexivity. Qed.

Lemma wfinal_epsremove (K : mat S) (m : wfsa S) : wfinal (epsremove_with K m) = wfinal m.
Proof. reflexivity. Qed.

Lemma warcs_epsremove (K : mat S) (m : wfsa S) :
  warcs (epsremove_with K m)
  = flat_map (fun ar => if is_eps (albl ar) then []
                        else map (fun k => (asrc ar, albl ar, k, awt ar * mget K (adst ar) k)) (states_of m))
             (warcs m).
Proof. reflexivity. Qed.

Theorem epsremove_eps_free : forall (K : mat S) (m : wfsa S) ar,
  In ar (warcs (epsremove_with K m)) -> albl ar <> None.
Proof.
  intros K m ar Hin. rewrite warcs_epsremove in Hin.
  apply in_flat_map in Hin. destruct Hin as [ar0 [Har0 Hin]].
  destruct (albl ar0) as [b|] eqn:E; cbn [is_eps] in Hin.
  - apply in_map_iff in Hin. destruct Hin as [k [Ek _]]. subst ar.
    unfold albl; cbn [fst snd]. discriminate.
  - destruct Hin.
Qed.

Lemma pw_epsremove_cons (K : mat S) (m : wfsa S) (k a : nat) (t : list nat) :
  pw (epsremove_with K m) k (a :: t)
  = bsum (warcs m) (fun ar =>
      if Nat.eqb (asrc ar) k && lbl_eqb (albl ar) a
      then awt ar * bsum (states_of m) (fun k' => mget K (adst ar) k' * pw (epsremove_with K m) k' t)
      else 0).
Proof.
  cbn [pw]. rewrite warcs_epsremove, bsum_flat_map.
  apply bsum_ext; intros ar _.
  destruct (albl ar) as [b|]; cbn [is_eps].
  - (* the copies of ar, one to each state k', agree with ar on source and label *)
    rewrite bsum_map. unfold asrc, albl, adst, awt; cbn [fst snd].
    destruct (Nat.eqb (fst (fst (fst ar))) k && lbl_eqb (Some b) a).
    + rewrite <- bsum_mul_l. apply bsum_ext; intros k' _. symmetry. apply (smul_assoc S).
    + apply bsum_const_zero.
  - rewrite bsum_nil, andb_false_r. reflexivity.
Qed.

Lemma pwK_epsremove (K : mat S) (m : wfsa S) (xs : list nat) : forall q,
  bsum (states_of m) (fun k => mget K q k * pw (epsremove_with K m) k xs)
  = pwK K (states_of m) m q xs.
Proof.
  induction xs as [|a t IH]; intros q.
  - cbn [pw pwK]. rewrite wfinal_epsremove. reflexivity.
  - cbn [pwK]. apply bsum_ext; intros k _. rewrite pw_epsremove_cons. f_equal.
    apply bsum_ext; intros ar _.
    destruct (Nat.eqb (asrc ar) k && lbl_eqb (albl ar) a); [|reflexivity].
    rewrite IH. reflexivity.
Qed.

Theorem epsremove_matrix_form : forall (K : mat S) (m : wfsa S) (xs : list nat),
  weight (epsremove_with K m) xs = matrix_form K (states_of m) m xs.
Proof.
  intros K m xs. rewrite forward_pathsum. unfold pathsum, matrix_form.
  rewrite winit_epsremove, bsum_flat_map.
  apply bsum_ext; intros e _. rewrite bsum_map. cbn [fst snd].
  rewrite <- pwK_epsremove, <- bsum_mul_l.
  apply bsum_ext; intros k _. symmetry. apply smul_assoc.
Qed.

Lemma states_nodup (m : wfsa S) : NoDup (states_of m).
Proof. apply NoDup_nodup. Qed.

Lemma init_in_states (m : wfsa S) e : In e (winit m) -> In (fst e) (states_of m).
Proof.
  intros He. unfold states_of. apply nodup_In. apply in_or_app; left.
  apply in_map; exact He.
Qed.

Lemma final_in_states (m : wfsa S) e : In e (wfinal m) -> In (fst e) (states_of m).
Proof.
  intros He. unfold states_of. apply nodup_In. apply in_or_app; right.
  apply in_or_app; left. apply in_map; exact He.
Qed.

Lemma src_in_states (m : wfsa S) ar : In ar (warcs m) -> In (asrc ar) (states_of m).
Proof.
  intros Har. unfold states_of. apply nodup_In. apply in_or_app; right.
  apply in_or_app; right. apply in_flat_map. exists ar. split; [exact Har|].
  left; reflexivity.
Qed.

Lemma dst_in_states (m : wfsa S) ar : In ar (warcs m) -> In (adst ar) (states_of m).
Proof.
  intros Har. unfold states_of. apply nodup_In. apply in_or_app; right.
  apply in_or_app; right. apply in_flat_map. exists ar. split; [exact Har|].
  right; left; reflexivity.
Qed.

(* one step by a labelled arc (or acceptance on the empty string), then [cont];
   on a :: t it is [rstep (warcs m) cont q (a :: t)] of WfsaProofs *)
Definition stepG (m : wfsa S) (cont : nat -> list nat -> S) (q : nat) (xs : list nat) : S :=
  match xs with
  | [] => wget (wfinal m) q
  | a :: t => bsum (warcs m) (fun ar =>
                if Nat.eqb (asrc ar) q && lbl_eqb (albl ar) a then awt ar * cont (adst ar) t else 0)
  end.

Lemma pwK_stepG (K : mat S) (st : list nat) (m : wfsa S) q xs :
  pwK K st m q xs = bsum st (fun k => mget K q k * stepG m (pwK K st m) k xs).
Proof. destruct xs; reflexivity. Qed.

(* a step looks at its continuation only on the rest of the word, at states of m *)
Lemma stepG_ext (m : wfsa S) (c c' : nat -> list nat -> S) q a t :
  (forall r, In r (states_of m) -> c r t = c' r t) ->
  stepG m c q (a :: t) = stepG m c' q (a :: t).
Proof.
  intros H. apply bsum_ext; intros ar Har.
  rewrite (H _ (dst_in_states m ar Har)). reflexivity.
Qed.

Definition idtab (st : list nat) : mat S := tabulate st (fun i k => if Nat.eqb i k then 1 else 0).

Lemma mget_idtab st i k : In i st -> In k st -> mget (idtab st) i k = fid i k.
Proof. intros Hi Hk. unfold idtab. rewrite mget_tabulate by assumption. reflexivity. Qed.

(* a table that is the identity on the states gives the plain path weights *)
Lemma pwK_fid_step (m : wfsa S) (K : mat S) q xs :
  (forall k, In k (states_of m) -> mget K q k = fid q k) -> In q (states_of m) ->
  pwK K (states_of m) m q xs = stepG m (pwK K (states_of m) m) q xs.
Proof.
  intros HK Hq. rewrite pwK_stepG.
  rewrite (bsum_ext S _ _ (fun k => fid q k * stepG m (pwK K (states_of m) m) k xs))
    by (intros k Hk; rewrite (HK k Hk); reflexivity).
  apply bsum_fid_l; [apply states_nodup|exact Hq].
Qed.

Lemma pwK_fid (m : wfsa S) (K : mat S) :
  (forall i k, In i (states_of m) -> In k (states_of m) -> mget K i k = fid i k) ->
  forall xs q, In q (states_of m) -> pwK K (states_of m) m q xs = pw m q xs.
Proof.
  intros HK. induction xs as [|a t IH]; intros q Hq; rewrite pwK_fid_step by auto.
  - reflexivity.
  - exact (stepG_ext m _ _ q a t IH).
Qed.

Theorem epsfree_matrix_form_id : forall (m : wfsa S) xs,
  (forall ar, In ar (warcs m) -> albl ar <> None) -> NoDup (states_of m) ->
  matrix_form (tabulate (states_of m) (fun i k => if Nat.eqb i k then 1 else 0)) (states_of m) m xs
  = pathsum m xs.
Proof.
  intros m xs _ _. unfold matrix_form, pathsum.
  apply bsum_ext; intros e He.
  f_equal. exact (pwK_fid m _ (mget_idtab (states_of m)) xs (fst e) (init_in_states m e He)).
Qed.

(* the epsilon arcs out of q, regrouped by target state *)
Lemma eps_part (m : wfsa S) (q : nat) (h : nat -> S) :
  bsum (states_of m) (fun j => epsf m q j * h j)
  = bsum (warcs m) (fun ar => if is_eps (albl ar) && Nat.eqb (asrc ar) q then awt ar * h (adst ar) else 0).
Proof.
  exact (bsum_by_key S (warcs m) (states_of m) adst (fun ar => is_eps (albl ar) && Nat.eqb (asrc ar) q)
           awt h (states_nodup m) (dst_in_states m)).
Qed.

(* the arcs leaving q: those reading the letter a, and the epsilon arcs *)
Lemma arcs_split (m : wfsa S) (q a : nat) (X Y : nat * option nat * nat * S -> S) :
  bsum (warcs m) (fun ar =>
    if Nat.eqb (asrc ar) q then
      match albl ar with None => X ar | Some b => if Nat.eqb a b then Y ar else 0 end
    else 0)
  = bsum (warcs m) (fun ar => if Nat.eqb (asrc ar) q && lbl_eqb (albl ar) a then Y ar else 0)
    + bsum (warcs m) (fun ar => if is_eps (albl ar) && Nat.eqb (asrc ar) q then X ar else 0).
Proof.
  rewrite <- bsum_add. apply bsum_ext; intros ar _.
  destruct (albl ar) as [b|]; destruct (Nat.eqb (asrc ar) q); cbn [is_eps lbl_eqb andb]; symmetry;
    [apply sadd_0_r|apply sadd_0_r|apply sadd_0_l|apply sadd_0_l].
Qed.

(* one-step unfolding of the fuel-bounded path sum: a labelled step, or an epsilon arc *)
Lemma pwe_unfold (m : wfsa S) (f q : nat) (xs : list nat) :
  pwe m (Datatypes.S f) q xs
  = stepG m (pwe m f) q xs + bsum (states_of m) (fun j => epsf m q j * pwe m f j xs).
Proof.
  rewrite eps_part. destruct xs as [|b t]; cbn [pwe stepG].
  - f_equal. apply bsum_ext; intros ar _.
    destruct (albl ar), (Nat.eqb (asrc ar) q); cbn [is_eps andb]; reflexivity.
  - rewrite (SRadd_0_l (sth S)), <- arcs_split.
    apply bsum_ext; intros ar _.
    destruct (albl ar) as [a'|]; [rewrite (Nat.eqb_sym a' b)|]; reflexivity.
Qed.

(* one-step unfolding of the matrix form, from K = I + E K *)
Lemma pwK_unfold (K : mat S) (m : wfsa S) (q : nat) (xs : list nat) :
  (forall i k, In i (states_of m) -> In k (states_of m) ->
     mget K i k = fid i k + bsum (states_of m) (fun j => epsf m i j * mget K j k)) ->
  In q (states_of m) ->
  pwK K (states_of m) m q xs
  = stepG m (pwK K (states_of m) m) q xs
    + bsum (states_of m) (fun j => epsf m q j * pwK K (states_of m) m j xs).
Proof.
  intros HK Hq. rewrite pwK_stepG.
  rewrite (bsum_unit_plus S (states_of m) q (mget K q) (epsf m q) _ (mget K)
             (states_nodup m) Hq (fun k Hk => HK q k Hq Hk)).
  f_equal. apply bsum_ext; intros j _. rewrite pwK_stepG. reflexivity.
Qed.

(* Both sides solve  y = g + E y  for g = the labelled step into pwK (the fuel-indexed
   one from fuel B on); E is nilpotent, so both are the finite sum  sum_{t<d} E^t g. *)
Lemma pwe_pwK_step (m : wfsa S) (K : mat S) (d : nat) (xs : list nat) (B : nat) :
  (forall i k, In i (states_of m) -> In k (states_of m) ->
     mget K i k = fid i k + bsum (states_of m) (fun j => epsf m i j * mget K j k)) ->
  (forall i k, In i (states_of m) -> In k (states_of m) -> fpow S (states_of m) (epsf m) d i k = 0) ->
  (forall f q, (B <= f)%nat -> In q (states_of m) ->
     stepG m (pwe m f) q xs = stepG m (pwK K (states_of m) m) q xs) ->
  forall f q, (B <= f)%nat -> In q (states_of m) ->
    pwe m (d + f) q xs = pwK K (states_of m) m q xs.
Proof.
  intros HK Hnil Hstep f q Hf Hq.
  pose proof (fpow_nilpotent S (states_of m) (epsf m) d Hnil) as Hop.
  set (g := fun k => stepG m (pwK K (states_of m) m) k xs).
  rewrite (nilpotent_family S (states_of m) (epsf m) d Hop g (fun f q => pwe m f q xs) B)
    by (try assumption; intros f' q' Hf' Hq'; rewrite pwe_unfold, Hstep by assumption; reflexivity).
  symmetry.
  apply (nilpotent_solution S (states_of m) (epsf m) d Hop g (fun q => pwK K (states_of m) m q xs)); [|exact Hq].
  intros q' Hq'. apply pwK_unfold; assumption.
Qed.

(* The fuel: an epsilon path has fewer than d arcs (E^d = 0), so at most d arcs are spent
   before each of the |xs| letters and before stopping, and one on each letter. *)
Lemma pwe_pwK (m : wfsa S) (K : mat S) (d : nat) :
  (forall i k, In i (states_of m) -> In k (states_of m) ->
     mget K i k = fid i k + bsum (states_of m) (fun j => epsf m i j * mget K j k)) ->
  (forall i k, In i (states_of m) -> In k (states_of m) -> fpow S (states_of m) (epsf m) d i k = 0) ->
  forall xs fuel q, In q (states_of m) ->
    ((length xs + 1) * d + length xs <= fuel)%nat ->
    pwe m fuel q xs = pwK K (states_of m) m q xs.
Proof.
  intros HK Hnil. induction xs as [|a t IH]; intros fuel q Hq Hfuel; cbn [length] in Hfuel;
    replace fuel with (d + (fuel - d))%nat by lia.
  - apply (pwe_pwK_step m K d [] 0 HK Hnil); [reflexivity|lia|exact Hq].
  - apply (pwe_pwK_step m K d (a :: t) ((length t + 1) * d + length t)%nat HK Hnil); [|lia|exact Hq].
    intros f q' Hf Hq'. apply stepG_ext. intros r Hr. exact (IH f r Hr Hf).
Qed.

Theorem epsremove_acyclic_paths : forall (m : wfsa S) (K : mat S) (d : nat) (xs : list nat) (fuel : nat),
  let st := states_of m in
  (forall i k, In i st -> In k st -> mget K i k = fid i k + bsum st (fun j => epsf m i j * mget K j k)) ->
  (forall i k, In i st -> In k st -> fpow S st (epsf m) d i k = 0) ->
  ((length xs + 1) * d + length xs <= fuel)%nat ->
  weight (epsremove_with K m) xs = pathsum_e m fuel xs.
Proof.
  intros m K d xs fuel st HK Hnil Hfuel. subst st.
  rewrite epsremove_matrix_form. unfold matrix_form, pathsum_e.
  apply bsum_ext; intros e He.
  rewrite (pwe_pwK m K d HK Hnil xs fuel (fst e) (init_in_states m e He) Hfuel). reflexivity.
Qed.

(* the library's table: the Lehmann closure of the epsilon graph *)
Lemma mget_eps_mat (m : wfsa S) (i j : nat) :
  In i (states_of m) -> In j (states_of m) -> mget (eps_mat m) i j = epsf m i j.
Proof. intros Hi Hj. unfold eps_mat. rewrite mget_tabulate by assumption. reflexivity. Qed.

Lemma lehmann_eps_closure (m : wfsa S) : defined S (states_of m) (eps_mat m) ->
  forall i k, In i (states_of m) -> In k (states_of m) ->
    mget (lehmann (states_of m) (eps_mat m)) i k
    = fid i k + bsum (states_of m) (fun j => epsf m i j * mget (lehmann (states_of m) (eps_mat m)) j k).
Proof.
  intros Hdef i k Hi Hk.
  rewrite (lehmann_fixpoint_l S (states_of m) (eps_mat m) (states_nodup m) Hdef i k Hi Hk).
  f_equal. apply bsum_ext; intros j Hj. rewrite mget_eps_mat by assumption. reflexivity.
Qed.

End EpsRemove.

Print Assumptions epsremove_eps_free.
Print Assumptions epsremove_matrix_form.
Print Assumptions epsfree_matrix_form_id.
Print Assumptions pwe_unfold.
Print Assumptions pwK_unfold.
Print Assumptions epsremove_acyclic_paths.
