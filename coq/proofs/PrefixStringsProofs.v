(* The prefix weight Wpre of a string p (model/Prefix.v) is the sum, over all terminal
   STRINGS that begin with p -- each string counted once --, of the height-h derivation
   sum W of that string: "the prefix weight of p is the total weight of the part of the
   language that extends p", at every height, over any commutative semiring.
   An instance of TotalStringsProofs.trees_by_yield, with the prefix filter. *)
From Coq Require Import List Arith BinNat.
From GV.lib Require Import Semiring BigSum.
From GV.model Require Import Cfg MachSpec Prefix.
From GV.proofs Require Import CfgTrees ProductProofs PrefixTrees TotalStringsProofs.
Import ListNotations.
Local Open Scope sr_scope.

Section PrefixStrings.
Variable S : SR.
Add Ring SRing : (sth S).

Theorem prefix_weight_is_sum_of_strings :
  forall (G : grammar S) (V : list nat) (h X L : nat) (p : list nat), NoDup V ->
  yields_within S G h X V L ->
  Wpre G h X p = bsum (filter (is_prefix p) (words_le V L)) (fun xs => W G h X xs).
Proof.
  intros G V h X L p HV Hy.
  rewrite Wpre_trees, !bsum_filter.
  etransitivity;
    [exact (trees_by_yield S G V h X L (fun xs t => if is_prefix p xs then tweight t else 0) HV Hy)|].
  apply bsum_ext; intros xs _. rewrite W_trees.
  destruct (is_prefix p xs); [reflexivity|apply bsum_const_zero].
Qed.

(* terminals of the grammar are in V; bodies have at most K symbols: the words over V
   of length <= K^h cover every yield at height h *)
Corollary prefix_weight_is_sum_of_all_strings : forall (G : grammar S) (V : list nat) (K : nat),
  NoDup V ->
  (forall r a, In r G -> In (T a) (rbody r) -> In a V) ->
  (forall r, In r G -> length (rbody r) <= K) ->
  forall h X p,
    Wpre G h X p = bsum (filter (is_prefix p) (words_le V (Nat.pow K h))) (fun xs => W G h X xs).
Proof.
  intros G V K HV HT HK h X p.
  apply prefix_weight_is_sum_of_strings; [exact HV|]. apply yields_within_bound; assumption.
Qed.

End PrefixStrings.

Print Assumptions prefix_weight_is_sum_of_strings.
Print Assumptions prefix_weight_is_sum_of_all_strings.

Local Close Scope sr_scope.

Example prefix_strings_instance :
  Wpre ex_G 3 0 [1] = 16%N /\
  Wpre ex_G 3 0 [1; 0] = 6%N /\
  Wpre ex_G 3 0 [0] = 0%N /\
  bsum (filter (is_prefix [1]) (words_le [0; 1] 2)) (fun xs => W ex_G 3 0 xs) = 16%N /\
  bsum (filter (is_prefix [1; 0]) (words_le [0; 1] 2)) (fun xs => W ex_G 3 0 xs) = 6%N /\
  filter (is_prefix [1]) (words_le [0; 1] 2) = [[1]; [1; 0]; [1; 1]].
Proof. vm_compute. repeat split; reflexivity. Qed.

(* the instance through the general corollary: bodies have at most 2 symbols, so the
   words of length <= 2^3 cover the language at height 3 *)
Example prefix_strings_instance_thm :
  Wpre ex_G 3 0 [1]
  = bsum (filter (is_prefix [1]) (words_le [0; 1] (Nat.pow 2 3))) (fun xs => W ex_G 3 0 xs).
Proof.
  apply (prefix_weight_is_sum_of_all_strings NSR ex_G [0; 1] 2).
  - exact NoDup_01.
  - apply terminals_in_ok. reflexivity.
  - apply bodies_le_ok. reflexivity.
Qed.

Print Assumptions prefix_strings_instance.
Print Assumptions prefix_strings_instance_thm.
