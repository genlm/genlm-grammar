(* Maps between the derivation trees of two grammars.  A grammar transformation is shown to
   preserve the weighted language by a pair of tree maps, each of which keeps root, yield and
   weight, bounds the height, and is undone by the other.  What follows from such a map alone
   (injectivity, the image of the enumeration [trees], the derivation sum as a sum over the
   image) is proved here once, for any two grammars. *)
From Coq Require Import List Arith.
From GV.lib Require Import Semiring BigSum.
From GV.model Require Import Cfg.
From GV.proofs Require Import CfgTrees.
Import ListNotations.
Local Open Scope sr_scope.

Lemma NoDup_map_inj_in {A B} (f : A -> B) (l : list A) :
  (forall a b, In a l -> In b l -> f a = f b -> a = b) -> NoDup l -> NoDup (map f l).
Proof.
  intros Hi H; induction H as [|a l Hn Hd IH]; simpl; constructor.
  - intros Hin. apply in_map_iff in Hin. destruct Hin as [b [Hb Hin]].
    assert (E : b = a).
    { apply Hi; [right; exact Hin|left; reflexivity|exact Hb]. }
    subst b. exact (Hn Hin).
  - apply IH. intros x y Hx Hy. apply Hi; right; assumption.
Qed.

Lemma fwf_two_inv (S : SR) (G : grammar S) s1 s2 f :
  fwf S G [s1; s2] f -> exists c1 c2, f = Fcons c1 (Fcons c2 Fnil) /\ twf S G s1 c1 /\ twf S G s2 c2.
Proof.
  intros H. inversion H as [|s b c1 k1 Hc1 Hk1]; subst. inversion Hk1 as [|s' b' c2 k2 Hc2 Hk2]; subst.
  inversion Hk2; subst. exists c1, c2. split; [reflexivity|]. split; assumption.
Qed.

(* [tok]: the tree map [m] with inverse [back] is correct on one tree: it keeps root, yield and
   weight and is undone by [back]; [fok] says the same of the forest maps [ms], [backs].
   [hrel] relates the height of a tree to that of its image; the bounds differ from one
   transformation to the next, the inductions only need [height_ok].  These are the induction
   predicates of the three correctness proofs; the cases that do not depend on the
   transformation are proved here. *)
Definition height_ok (hrel : nat -> nat -> Prop) : Prop :=
  hrel O O /\
  (forall a b c d, hrel a b -> hrel c d -> hrel (Nat.max a c) (Nat.max b d)) /\
  (forall a b, hrel a b -> hrel (Datatypes.S a) (Datatypes.S b)).

(* the image of a tree of height h has height at most hb h *)
Definition bounded_by (hb : nat -> nat) (a b : nat) : Prop := b <= hb a.

Lemma no_higher_ok : height_ok (bounded_by (fun h => h)).
Proof.
  exact (conj (le_n 0) (conj (fun a b c d => Nat.max_le_compat b a d c) (fun a b => le_n_S b a))).
Qed.

Lemma bound_id_mono a b : a <= b -> (fun h : nat => h) a <= (fun h : nat => h) b.
Proof. intros H. exact H. Qed.

Section MapOk.
Variable S : SR.
Variable G2 : grammar S.
Variables m back : tree S -> tree S.
Variables ms backs : forest S -> forest S.
Variable hrel : nat -> nat -> Prop.

Definition tok (s : sym) (t : tree S) : Prop :=
  twf S G2 s (m t) /\ tyield (m t) = tyield t /\ tweight (m t) = tweight t /\
  hrel (theight t) (theight (m t)) /\ back (m t) = t.

Definition fok (b : list sym) (f : forest S) : Prop :=
  fwf S G2 b (ms f) /\ fyield (ms f) = fyield f /\ fweight (ms f) = fweight f /\
  hrel (fheight f) (fheight (ms f)) /\ backs (ms f) = f.

Hypothesis Hrel : height_ok hrel.

Lemma tok_leaf a : m (Leaf a) = Leaf a -> back (Leaf a) = Leaf a -> tok (T a) (Leaf a).
Proof.
  intros Em Eb. unfold tok. rewrite Em.
  exact (conj (twf_leaf S G2 a) (conj eq_refl (conj eq_refl (conj (proj1 Hrel) Eb)))).
Qed.

Lemma fok_nil : ms Fnil = Fnil -> backs Fnil = Fnil -> fok [] Fnil.
Proof.
  intros Em Eb. unfold fok. rewrite Em.
  exact (conj (fwf_nil S G2) (conj eq_refl (conj eq_refl (conj (proj1 Hrel) Eb)))).
Qed.

(* the first two premises say that ms and backs map a forest tree by tree *)
Lemma fok_cons s b t f :
  ms (Fcons t f) = Fcons (m t) (ms f) -> backs (Fcons (m t) (ms f)) = Fcons (back (m t)) (backs (ms f)) ->
  tok s t -> fok b f -> fok (s :: b) (Fcons t f).
Proof.
  intros Em Eb (Htw & Hty & Htwt & Hth & Htb) (Hw & Hy & Hwt & Hh & Hb).
  unfold fok. rewrite Em, Eb, Htb, Hb.
  (* yield and weight of a forest are those of its first tree and of the rest *)
  exact (conj (fwf_cons S G2 s b (m t) (ms f) Htw Hw) (conj (f_equal2 (@app nat) Hty Hy) (conj (f_equal2 (@smul S) Htwt Hwt)
        (conj (proj1 (proj2 Hrel) _ _ _ _ Hth Hh) eq_refl)))).
Qed.

(* a node whose image is again a single node, of a rule with the same head *)
Lemma tok_node i r kids j r' g :
  m (Node i r kids) = Node j r' g ->
  nth_error G2 j = Some r' -> rhead r' = rhead r -> fwf S G2 (rbody r') g ->
  fyield g = fyield kids -> rw r' * fweight g = rw r * fweight kids ->
  hrel (Datatypes.S (fheight kids)) (Datatypes.S (fheight g)) ->
  back (Node j r' g) = Node i r kids ->
  tok (N (rhead r)) (Node i r kids).
Proof.
  intros Em Hj Hhd Hw Hy Hwt Hh Eb. unfold tok. rewrite Em, <- Hhd.
  exact (conj (twf_node S G2 j r' g Hj Hw) (conj Hy (conj Hwt (conj Hh Eb)))).
Qed.

(* ... in particular the same rule at another place, above the images of the children *)
Lemma tok_node_moved i r kids j r' :
  m (Node i r kids) = Node j r' (ms kids) ->
  nth_error G2 j = Some r' -> rhead r' = rhead r -> rw r' = rw r -> fok (rbody r') kids ->
  (forall k, back (Node j r' k) = Node i r (backs k)) ->
  tok (N (rhead r)) (Node i r kids).
Proof.
  intros Em Hj Hhd Hrw (Hw & Hy & Hwt & Hh & Hb) Eb.
  apply (tok_node i r kids j r' (ms kids)); try assumption.
  - rewrite Hrw, Hwt. reflexivity.
  - apply (proj2 (proj2 Hrel)). exact Hh.
  - rewrite Eb, Hb. reflexivity.
Qed.

End MapOk.

(* What follows once [m] is correct, with a monotone height bound [hb], on every tree of G1
   rooted at X. *)
Section TreeMap.
Variable S : SR.
Variables G1 G2 : grammar S.
Variables m back : tree S -> tree S.
Variable hb : nat -> nat.
Variable X : nat.

Hypothesis Hok : forall t, twf S G1 (N X) t -> tok S G2 m back (bounded_by hb) (N X) t.
Hypothesis Hmono : forall a b, a <= b -> hb a <= hb b.

Lemma tmap_inj t1 t2 : twf S G1 (N X) t1 -> twf S G1 (N X) t2 -> m t1 = m t2 -> t1 = t2.
Proof.
  intros H1 H2 E.
  destruct (Hok t1 H1) as (_ & _ & _ & _ & E1). destruct (Hok t2 H2) as (_ & _ & _ & _ & E2).
  rewrite <- E1, <- E2, E. reflexivity.
Qed.

Lemma tmap_trees h t : In t (trees G1 h X) -> In (m t) (trees G2 (hb h) X).
Proof.
  intros Hin. destruct (trees_sound S G1 h X t Hin) as [Hw Hh].
  destruct (Hok t Hw) as (Hw' & _ & _ & Hh' & _).
  apply trees_complete; [exact Hw'|]. apply (Nat.le_trans _ _ _ Hh'), Hmono, Hh.
Qed.

(* every enumerated tree of G1 is the image under [back] of an enumerated tree of G2 *)
Lemma tmap_onto h t : In t (trees G1 h X) -> exists t', In t' (trees G2 (hb h) X) /\ back t' = t.
Proof.
  intros Hin. exists (m t). split; [apply tmap_trees; exact Hin|].
  apply Hok. exact (proj1 (trees_sound S G1 h X t Hin)).
Qed.

(* W G1 h X xs is the sum over a duplicate-free sub-list of the trees of G2 of height at most
   hb h, with the same yields and weights *)
Theorem tmap_sub_sum h xs :
  NoDup (map m (trees G1 h X)) /\
  incl (map m (trees G1 h X)) (trees G2 (hb h) X) /\
  W G1 h X xs = bsum (filter (yields xs) (map m (trees G1 h X))) tweight.
Proof.
  split; [|split].
  - apply NoDup_map_inj_in; [|apply trees_NoDup].
    intros t1 t2 H1 H2. apply tmap_inj.
    + exact (proj1 (trees_sound S G1 h X t1 H1)).
    + exact (proj1 (trees_sound S G1 h X t2 H2)).
  - intros t' Hin. apply in_map_iff in Hin. destruct Hin as [t [Et Hin]]. subst t'.
    apply tmap_trees. exact Hin.
  - rewrite W_trees, !bsum_filter, bsum_map. apply bsum_ext. intros t Hin.
    destruct (Hok t (proj1 (trees_sound S G1 h X t Hin))) as (_ & Hy & Hwt & _).
    unfold yields. rewrite Hy, Hwt. reflexivity.
Qed.

End TreeMap.
