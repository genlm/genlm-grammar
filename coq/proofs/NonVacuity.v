(* Non-vacuity: for every property theorem of props/C01.v ... props/C20.v that has hypotheses and no
   accompanying Example in its own file, a concrete instance over a concrete semiring that satisfies
   ALL the hypotheses simultaneously; where cheap, the theorem is applied to the instance and the
   instantiated conclusion is stated (and often evaluated).

   An Example's statement lists the hypotheses, then the theorem's conclusion for the instance, then evaluated
   values.  Its proof is one term in that order.  A hypothesis that is a lemma about the example object appears
   by name; one that is local to the Example is bound by [hyp_then] and proved in a bullet of its own, in the
   order of the statement; then a bullet applies the property theorem (instantiated once, by [pose proof] or
   [destruct], where its conclusion is spread over several conjuncts).  Side conditions that quantify over the
   rules of a literal grammar or the entries of a literal table are evaluated boolean checks ([ntsb], [rankedb],
   [terms_inb], [qc_table], [nodup_ok], [incl_ok]); those over the two or three arcs or states of a literal
   automaton are proved by cases on the list. *)
From Coq Require Import List QArith Qcanon Lia Permutation.
From GV.lib Require Import Semiring BigSum.
From GV.model Require Import Cfg MachSpec Fst Prefix Norm Deriv Transform Transform2 Blocks.
From GV.proofs Require FoldProofs StableSolves TrimProofs BlockSolver.
Import ListNotations.
Local Open Scope nat_scope.

(* a hypothesis of an example's statement, proved once: as a conjunct, and for the theorem that needs it *)
Lemma hyp_then {A B : Prop} : A -> (A -> B) -> A /\ B.
Proof. intros a f. exact (conj a (f a)). Qed.

Definition nodup_ok (l : list nat) : nodupb l = true -> NoDup l := proj1 (BlockSolver.nodupb_NoDup l).

Lemma incl_ok (l l' : list nat) : forallb (fun a => memn a l') l = true -> forall a, In a l -> In a l'.
Proof. intros H a Ha. rewrite forallb_forall in H. apply BlockSolver.memn_In, H, Ha. Qed.

Lemma keys_functional {B} (l : list (nat * B)) : NoDup (map fst l) ->
  forall e1 e2, In e1 l -> In e2 l -> fst e1 = fst e2 -> e1 = e2.
Proof.
  induction l as [|e l IH]; intros Hn e1 e2 H1 H2 E; [destruct H1|].
  inversion Hn as [|x t Hx Ht]; subst.
  destruct H1 as [<-|H1], H2 as [<-|H2].
  - reflexivity.
  - exfalso. apply Hx. rewrite E. apply in_map, H2.
  - exfalso. apply Hx. rewrite <- E. apply in_map, H1.
  - exact (IH Ht e1 e2 H1 H2 E).
Qed.

(* equality of concrete rationals: compare the fractions, not the canonicity proofs *)
Lemma qc_ok (a b : Qc) : Qeq_bool a b = true -> a = b.
Proof. intros H. apply Qc_is_canon, Qeq_bool_eq, H. Qed.
Ltac qc := apply qc_ok; vm_compute; reflexivity.

(* a table of rationals, entry by entry *)
Lemma qc_table (l1 l2 : list nat) (f g : nat -> nat -> Qc) :
  forallb (fun i => forallb (fun k => Qeq_bool (f i k) (g i k)) l2) l1 = true ->
  forall i k, In i l1 -> In k l2 -> f i k = g i k.
Proof.
  intros H i k Hi Hk. rewrite forallb_forall in H. specialize (H i Hi). rewrite forallb_forall in H.
  apply qc_ok, H, Hk.
Qed.

Section Checks.
Variable S : SR.

(* a check of every body symbol of every rule *)
Lemma bodies_ok (q : rule S -> sym -> bool) (G : grammar S) :
  forallb (fun r => forallb (q r) (rbody r)) G = true -> forall r y, In r G -> In y (rbody r) -> q r y = true.
Proof.
  intros H r y Hr Hy. rewrite forallb_forall in H. specialize (H r Hr). rewrite forallb_forall in H. exact (H y Hy).
Qed.

(* the boolean form of [StableSolves.ranked]; a ranked grammar is solved by W at any height above the ranks
   ([StableSolves.ranked_solves_bound]) *)
Definition rankedb (rk : nat -> nat) (G : grammar S) : bool :=
  forallb (fun r => forallb (fun y => match y with N Y => rk Y <? rk (rhead r) | T _ => true end) (rbody r)) G.
Lemma rankedb_ok rk G : rankedb rk G = true -> StableSolves.ranked S rk G.
Proof. intros H r Y Hr HY. apply Nat.ltb_lt, (bodies_ok _ G H r (N Y) Hr HY). Qed.

Definition terms_inb (V : list nat) (G : grammar S) : bool :=
  forallb (fun r => forallb (fun y => match y with T a => memn a V | N _ => true end) (rbody r)) G.
Lemma terms_inb_ok V G : terms_inb V G = true -> forall r a, In r G -> In (T a) (rbody r) -> In a V.
Proof. intros H r a Hr Ha. apply BlockSolver.memn_In, (bodies_ok _ G H r (T a) Hr Ha). Qed.

(* every nonterminal of G, head or in a body, satisfies P *)
Definition nts_sat (P : nat -> Prop) (G : grammar S) : Prop :=
  (forall r, In r G -> P (rhead r)) /\ (forall r Y, In r G -> In (N Y) (rbody r) -> P Y).
Definition ntsb (p : nat -> bool) (G : grammar S) : bool :=
  forallb (fun r => p (rhead r)) G && forallb (fun r => forallb (fun y => match y with N Y => p Y | T _ => true end) (rbody r)) G.
Lemma ntsb_ok p (P : nat -> Prop) G : (forall X, p X = true -> P X) -> ntsb p G = true -> nts_sat P G.
Proof.
  intros HP H. apply andb_true_iff in H. destruct H as [H1 H2]. rewrite forallb_forall in H1. split.
  - intros r Hr. apply HP, H1, Hr.
  - intros r Y Hr HY. apply HP, (bodies_ok _ G H2 r (N Y) Hr HY).
Qed.
Definition nts_below (n : nat) : grammar S -> Prop := nts_sat (fun X => X < n).
Definition nts_above (n : nat) : grammar S -> Prop := nts_sat (fun X => n <= X).
Lemma nts_below_ok n G : ntsb (fun X => X <? n) G = true -> nts_below n G.
Proof. apply ntsb_ok. intros X. apply Nat.ltb_lt. Qed.
Lemma nts_above_ok n G : ntsb (Nat.leb n) G = true -> nts_above n G.
Proof. apply ntsb_ok. intros X. apply Nat.leb_le. Qed.

Lemma nts_sat_nt P G X : nts_sat P G -> (exists r, In r G /\ (rhead r = X \/ In (N X) (rbody r))) -> P X.
Proof. intros [A B] [r [Hr [E|HX]]]; [rewrite <- E; exact (A r Hr)|exact (B r X Hr HX)]. Qed.

(* a symbol outside the range of the nonterminals of G is fresh for G *)
Lemma nts_fresh P G X : nts_sat P G -> ~ P X ->
  (forall r, In r G -> rhead r <> X) /\ (forall r, In r G -> ~ In (N X) (rbody r)).
Proof.
  intros [A B] HX. split; intros r Hr H; apply HX; [rewrite <- H; exact (A r Hr)|exact (B r X Hr H)].
Qed.
End Checks.

Lemma below_ok (n : nat) (p : nat -> bool) : forallb p (seq 0 n) = true -> forall k, k < n -> p k = true.
Proof. intros H k Hk. rewrite forallb_forall in H. apply H, in_seq. lia. Qed.

Lemma nodup01 : NoDup [0; 1].
Proof. apply nodup_ok. reflexivity. Qed.
Lemma nodup3 : NoDup [0; 1; 2].
Proof. apply nodup_ok. reflexivity. Qed.
Lemma nodup0 : NoDup [0].
Proof. apply nodup_ok. reflexivity. Qed.
Lemma in0_01 : In 0 [0; 1]. Proof. left. reflexivity. Qed.
Lemma in1_01 : In 1 [0; 1]. Proof. cbn. tauto. Qed.
Lemma in0_3 : In 0 [0; 1; 2]. Proof. left. reflexivity. Qed.
Lemma in2_3 : In 2 [0; 1; 2]. Proof. cbn. tauto. Qed.

(* a running example: S -> A b | b ; A -> a | eps   (a = 0, b = 1; nonterminals S = 0, A = 1) over Qc *)
Definition Gq : grammar QcSR :=
  [ (mkq 1 2, 0, [N 1; T 1]); (mkq 1 3, 0, [T 1]); (mkq 1 5, 1, [T 0]); (mkq 1 7, 1, []) ].
Definition fq : nat -> list nat -> QcSR := W Gq 3.
Lemma fq_solves : FoldProofs.solves QcSR Gq fq.
Proof.
  apply (StableSolves.ranked_solves_bound QcSR (fun X => 2 - X)); [apply rankedb_ok; reflexivity|intros X; lia].
Qed.
Lemma Gq_nts : nts_below QcSR 2 Gq.
Proof. exact (nts_below_ok QcSR 2 Gq eq_refl). Qed.
(* names f X beyond the nonterminals 0, 1 of Gq are fresh for it *)
Lemma Gq_fresh (f : nat -> nat) : (forall X, 2 <= f X) ->
  (forall r X, In r Gq -> rhead r <> f X) /\ (forall r X, In r Gq -> ~ In (N (f X)) (rbody r)).
Proof. intros Hf. split; intros r X; apply (nts_fresh QcSR _ Gq (f X) Gq_nts); specialize (Hf X); lia. Qed.

(* the same shape over the Booleans, with a nullable and a useless symbol *)
Definition Gb : grammar BoolSR :=
  [ (true, 0, [N 1; T 1]); (true, 0, []); (true, 1, [T 0]); (true, 1, [N 1; N 1]); (true, 2, [N 2]) ].
Lemma Gb_nts : nts_below BoolSR 3 Gb.
Proof. exact (nts_below_ok BoolSR 3 Gb eq_refl). Qed.
Lemma Gb_head9 : forall r, In r Gb -> rhead r <> 9.
Proof. apply (nts_fresh BoolSR _ Gb 9 Gb_nts). lia. Qed.
Lemma Gb_body9 : forall r, In r Gb -> ~ In (N 9) (rbody r).
Proof. apply (nts_fresh BoolSR _ Gb 9 Gb_nts). lia. Qed.

From GV.gen Require Import Gen_Machines.
From GV.props Require C01.

Example C01_prefix_transducer_nonvacuous :
  NoDup [0; 1; 2] /\ (forall a, In a [2; 0; 1] -> In a [0; 1; 2]) /\ length [2; 0; 1] <= 3 /\
  trel (prefix_transducer (S:=NSR) [0; 1; 2]) 3 [2; 0; 1] [2; 0] = 1%N.
Proof.
  (* the fuel 3 is the length of the input *)
  refine (conj nodup3 (hyp_then _ (fun H2 => conj (le_n 3) _))).
  - (* the input is over V *) apply incl_ok. reflexivity.
  - (* the theorem, evaluated *)
    rewrite (C01.C01_prefix_transducer NSR [0; 1; 2] [2; 0; 1] [2; 0] 3 nodup3 H2 (le_n 3)). reflexivity.
Qed.

Example C01_executable_mask_nonvacuous :
  prefix_lang Gb 10 0 [0; 0] = Some true /\ prefix_lang Gb 10 0 [1] = Some false /\
  (exists H, forall h, H <= h -> Wpre Gb h 0 [0; 0] = true) /\
  (exists H, forall h, H <= h -> Wpre Gb h 0 [1] = false).
Proof.
  refine (hyp_then _ (fun E1 => hyp_then _ (fun E2 => conj _ _))).
  - (* a viable prefix *) vm_compute. reflexivity.
  - (* a prefix that is not viable *) vm_compute. reflexivity.
  - (* the theorem, on each *) exact (C01.C01_executable_mask Gb 10 0 [0; 0] true E1).
  - exact (C01.C01_executable_mask Gb 10 0 [1] false E2).
Qed.

Example C01_eos_iff_complete_nonvacuous :
  (forall r, In r Gb -> rhead r <> 9) /\ (forall r, In r Gb -> ~ In (N 9) (rbody r)) /\
  (forall h xs, W (add_eos 9 0 7 Gb) (Datatypes.S h) 9 (xs ++ [7]) = W Gb h 0 xs) /\
  W (add_eos 9 0 7 Gb) 4 9 ([0; 0; 1] ++ [7]) = true.
Proof.
  refine (conj Gb_head9 (conj Gb_body9 (conj (fun h xs => C01.C01_eos_iff_complete Gb 9 0 7 h xs Gb_head9 Gb_body9) _))).
  vm_compute. reflexivity.
Qed.

(* the theorems of props/C02.v that have no example there *)
From GV.props Require C02.

Example C02_executable_model_is_reference_nonvacuous :
  lang Gq 10 0 [0; 1] = Some (mkq 1 10 : QcSR) /\ stable QcSR Gq 0 [0; 1] (mkq 1 10) /\
  (1 <= 2 -> 2 <= length [0; 1] -> cget (citer Gq [0; 1] 3 []) (0, 1, 2) = W Gq 3 0 (sub [0; 1] 1 2)).
Proof.
  refine (hyp_then _ (fun E => conj _ _)).
  - (* the run *) vm_compute. reflexivity.
  - (* the theorem: a stable run is the reference value *)
    exact (proj2 (C02.C02_executable_model_is_reference QcSR Gq [0; 1]) 10 0 _ E).
  - (* the theorem: the chart is W *) exact (proj1 (C02.C02_executable_model_is_reference QcSR Gq [0; 1]) 3 0 1 2).
Qed.

Example C02_perm_rename_invariant_nonvacuous :
  let G' := [ (mkq 1 3 : QcSR, 0, [T 1]); (mkq 1 2, 0, [N 1; T 1]); (mkq 1 5, 1, [T 0]); (mkq 1 7, 1, []) ] in
  let f := fun x => x + 5 in
  Permutation Gq G' /\ (forall p q, f p = f q -> p = q) /\
  (forall h X xs, W Gq h X xs = W G' h X xs /\ W (rename_g f Gq) h (f X) xs = W Gq h X xs) /\
  W (rename_g f Gq) 3 5 [0; 1] = mkq 1 10.
Proof.
  intros G' f.
  (* G' swaps the first two rules of Gq *)
  refine (conj (perm_swap _ _ _) (hyp_then _ (fun Hf => conj _ _))).
  - (* f injective *) unfold f. intros. lia.
  - (* the theorem *) intros h X xs. exact (C02.C02_perm_rename_invariant QcSR Gq G' f h X xs (perm_swap _ _ _) Hf).
  - (* a value *) qc.
Qed.

From GV.props Require C03.

Example C03_executable_prefix_model_nonvacuous :
  prefix_lang Gq 10 0 [0] = Some (mkq 1 10 : QcSR) /\
  (exists H, forall h, H <= h -> Wpre Gq h 0 [0] = mkq 1 10) /\
  (1 <= length [0; 1] ->
   pget (snd (fst (piter Gq [0; 1] 3 ([], [], [])))) (0, 1) = Wpre Gq 3 0 (sub [0; 1] 1 (length [0; 1]))).
Proof.
  refine (hyp_then _ (fun E => conj _ _)).
  - (* the run *) vm_compute. reflexivity.
  - (* the theorem: a stable run is the limit of Wpre *)
    exact (proj2 (C03.C03_executable_prefix_model QcSR Gq [0]) 10 0 _ E).
  - (* the theorem: the prefix chart is Wpre *) exact (proj1 (C03.C03_executable_prefix_model QcSR Gq [0; 1]) 3 0 1).
Qed.

(* names for the derivative's nonterminals: injective and beyond the nonterminals 0, 1 of Gq *)
Definition sl1 (X : nat) : nat := 3 * X + 10.
Definition sl2 (X : nat) : nat := 3 * X + 11.
Lemma sl1_inj : forall X Y, sl1 X = sl1 Y -> X = Y.
Proof. unfold sl1. intros. lia. Qed.
Lemma sl2_inj : forall X Y, sl2 X = sl2 Y -> X = Y.
Proof. unfold sl2. intros. lia. Qed.
Lemma sl1_ge X : 2 <= sl1 X. Proof. unfold sl1. lia. Qed.
Lemma sl2_ge X : 2 <= sl2 X. Proof. unfold sl2. lia. Qed.
Definition sl1_head := proj1 (Gq_fresh sl1 sl1_ge).
Definition sl1_body := proj2 (Gq_fresh sl1 sl1_ge).
Definition sl2_head := proj1 (Gq_fresh sl2 sl2_ge).
Definition sl2_body := proj2 (Gq_fresh sl2 sl2_ge).

(* derivative w.r.t. b = 1 of S -> A b | b, A -> a | eps: A is nullable, so the rule S -> A b contributes
   both S/b -> A/b b and (with the null weight 1/7 of A) S/b -> eps *)
Example C03_derivative_nonvacuous :
  let U := fun X => fq X [] in
  (forall X Y, sl1 X = sl1 Y -> X = Y) /\
  (forall r X, In r Gq -> rhead r <> sl1 X) /\ (forall r X, In r Gq -> ~ In (N (sl1 X)) (rbody r)) /\
  FoldProofs.solves QcSR Gq fq /\ (forall X, U X = fq X []) /\ U 1 = mkq 1 7 /\
  FoldProofs.solves QcSR (derivative U sl1 1 Gq) (deriv_val sl1 1 Gq fq) /\
  (forall s xs, deriv_val sl1 1 Gq fq (sl1 s) xs = fq s (1 :: xs)) /\
  deriv_val sl1 1 Gq fq (sl1 0) [] = mkq 17 42 /\ length (derivative U sl1 1 Gq) = 7.
Proof.
  intros U.
  pose proof (C03.C03_derivative QcSR sl1 1 Gq fq U sl1_inj sl1_head sl1_body fq_solves (fun X => eq_refl)) as R.
  refine (conj sl1_inj (conj sl1_head (conj sl1_body (conj fq_solves (conj (fun X => eq_refl) (conj _ (conj (proj1 R)
          (conj (proj2 R) (conj _ eq_refl))))))))); qc.
Qed.

Example C03_derivative_twice_nonvacuous :
  let U := fun X => fq X [] in
  let U2 := fun X => deriv_val sl1 0 Gq fq X [] in
  (forall X Y, sl1 X = sl1 Y -> X = Y) /\ (forall X Y, sl2 X = sl2 Y -> X = Y) /\
  (forall r X, In r Gq -> rhead r <> sl1 X) /\ (forall r X, In r Gq -> ~ In (N (sl1 X)) (rbody r)) /\
  (forall r X, In r Gq -> rhead r <> sl2 X) /\ (forall r X, In r Gq -> ~ In (N (sl2 X)) (rbody r)) /\
  (forall X Y, sl2 X <> sl1 Y) /\
  FoldProofs.solves QcSR Gq fq /\ (forall X, U X = fq X []) /\ (forall X, U2 X = deriv_val sl1 0 Gq fq X []) /\
  let D := derivative U sl1 0 Gq in
  let f2 := deriv_val sl2 1 D (deriv_val sl1 0 Gq fq) in
  FoldProofs.solves QcSR (derivative U2 sl2 1 D) f2 /\ (forall s xs, f2 (sl2 (sl1 s)) xs = fq s (0 :: 1 :: xs)) /\
  f2 (sl2 (sl1 0)) [] = mkq 1 10.
Proof.
  intros U U2.
  refine (conj sl1_inj (conj sl2_inj (conj sl1_head (conj sl1_body (conj sl2_head (conj sl2_body (hyp_then _ (fun Hd =>
          conj fq_solves (conj (fun X => eq_refl) (conj (fun X => eq_refl) _)))))))))).
  - (* the two families of names are disjoint *) unfold sl1, sl2. intros. lia.
  - (* the theorem, then a value *) intros D f2.
    destruct (C03.C03_derivative_twice QcSR sl1 sl2 0 1 Gq fq U U2 sl1_inj sl2_inj sl1_head sl1_body sl2_head sl2_body Hd
                fq_solves (fun X => eq_refl) (fun X => eq_refl)) as [A B].
    refine (conj A (conj B _)). qc.
Qed.

From GV.props Require C04.

(* the language model over V = [0], eos = 1 that gives 0^n the weight (1/2)^(n+1):
   prefix weight pw(0^n) = (1/2)^n, complete-string weight cw(0^n) = (1/2)^(n+1) *)
Definition half : Qc := mkq 1 2.
Fixpoint hp (n : nat) : Qc := match n with O => 1%Qc | Datatypes.S n' => (half * hp n')%Qc end.
Definition pw4 (ctx : list nat) : QcFR := hp (length ctx).
Definition cw4 (ctx : list nat) : QcFR := hp (Datatypes.S (length ctx)).
Definition nw4 (ctx : list nat) (t : nat) : QcFR := if Nat.eqb t 1 then cw4 ctx else pw4 (ctx ++ [t]).
Lemma half_half : (half + half = 1)%Qc. Proof. qc. Qed.
Lemma nw4_token : forall ctx t, In t [0] -> nw4 ctx t = pw4 (ctx ++ [t]).
Proof. intros ctx t [<-|[]]. reflexivity. Qed.
(* a prefix is complete or goes on with the one token: (1/2)^n = (1/2)^(n+1) + (1/2)^(n+1) *)
Lemma pw4_split : forall ctx, pw4 ctx = sadd (cw4 ctx) (bsum [0] (fun t => pw4 (ctx ++ [t]))).
Proof.
  intros ctx. unfold pw4, cw4.
  change (hp (length ctx) = (half * hp (length ctx) + (hp (length (ctx ++ [0%nat])) + Q2Qc 0))%Qc).
  rewrite app_length. cbn [length]. rewrite Nat.add_1_r. cbn [hp]. generalize (hp (length ctx)); intros q.
  transitivity ((half + half) * q)%Qc; [rewrite half_half; ring|ring].
Qed.
Lemma zsum4_nonzero : zsum [0] 1 nw4 [0; 0] <> s0.
Proof. vm_compute. discriminate. Qed.

Example C04_sums_to_one_nonvacuous :
  zsum [0] 1 nw4 [0; 0] <> s0 /\ bsum ([0] ++ [1]) (p_next [0] 1 nw4 [0; 0]) = s1 /\
  p_next [0] 1 nw4 [0; 0] 0 = mkq 1 2.
Proof.
  refine (conj zsum4_nonzero (conj (C04.C04_sums_to_one QcFR [0] 1 nw4 [0; 0] zsum4_nonzero) _)). qc.
Qed.

Example C04_chain_rule_nonvacuous :
  (forall ctx t, In t [0] -> nw4 ctx t = pw4 (ctx ++ [t])) /\
  (forall ctx, nw4 ctx 1 = cw4 ctx) /\
  (forall ctx, pw4 ctx = sadd (cw4 ctx) (bsum [0] (fun t => pw4 (ctx ++ [t])))) /\
  ~ In 1 [0] /\
  (forall x, In x [0; 0] -> In x [0]) /\
  (forall k, k <= length [0; 0] -> pw4 ([] ++ firstn k [0; 0]) <> s0) /\
  chain [0] 1 nw4 [] [0; 0] = fdiv QcFR (cw4 ([] ++ [0; 0])) (pw4 []) /\
  chain [0] 1 nw4 [] [0; 0] = mkq 1 8.
Proof.
  refine (conj nw4_token (conj (fun ctx => eq_refl) (conj pw4_split (hyp_then _ (fun H4 => hyp_then _ (fun H5 => hyp_then _ (fun H6 => conj _ _))))))).
  - (* eos is not a token *) intros [E|[]]. discriminate E.
  - (* the string is over V *) apply incl_ok. reflexivity.
  - (* no prefix of it has weight zero *)
    intros k Hk. cbn in Hk. destruct k as [|[|[|k]]]; [vm_compute; discriminate ..|lia].
  - (* the theorem *) exact (C04.C04_chain_rule QcFR [0] 1 nw4 pw4 cw4 nw4_token (fun ctx => eq_refl) pw4_split H4 [0; 0] [] H5 H6).
  - (* its value *) qc.
Qed.

(* history independence from a non-empty consistent cache *)
From GV.model Require Import Cache.
From GV.props Require C05.

Example C05_history_independent_nonvacuous :
  let next := fun (c : list nat) a => length c + a in
  let answer := fun (c : list nat) (r : list nat) => (length c, r) in
  let m := fst (run 0 next answer [] [Query [1; 0]; Query [2]]) in
  cache_ok 0 next m /\ length m = 4 /\
  snd (run 0 next answer m [Query [3; 1; 0]; Clear; Query [2]])
    = map (fresh_answer 0 next answer) [Query [3; 1; 0]; Clear; Query [2]].
Proof.
  intros next answer m.
  refine (hyp_then _ (fun Hm => conj eq_refl _)).
  - (* the theorem, from the empty cache: m is consistent *)
    refine (proj2 (C05.C05_history_independent nat 0 next _ answer [Query [1; 0]; Query [2]] [] _)).
    intros r c H. discriminate H.
  - (* the theorem, from m *) exact (proj1 (C05.C05_history_independent nat 0 next _ answer _ m Hm)).
Qed.

From GV.gen Require Import Gen_Cfg.
From GV.proofs Require UnfoldProofs UnfoldTreeProofs SepTermProofs BinTreeProofs NullUnaryProofs.
From GV.props Require C06.

Ltac twf_tac := repeat first
  [ apply twf_leaf | apply fwf_nil | apply fwf_cons
  | match goal with |- twf ?S ?G _ (Node ?i ?r ?k) => apply (twf_node S G i r k); [reflexivity|] end ].

Example C06_rename_preserves_nonvacuous :
  let f := fun x => 2 * x + 5 in
  (forall p q, f p = f q -> p = q) /\ (forall h X xs, W (rename_g f Gq) h (f X) xs = W Gq h X xs) /\
  W (rename_g f Gq) 3 5 [0; 1] = mkq 1 10.
Proof.
  intros f.
  refine (hyp_then _ (fun Hf => conj _ _)).
  - (* f injective *) unfold f. intros. lia.
  - (* the theorem *) intros h X xs. exact (C06.C06_rename_preserves QcSR Gq f h X xs Hf).
  - (* a value *) qc.
Qed.

(* a right-recursive grammar whose start symbol occurs on a right-hand side *)
Definition Gr : grammar NSR := [ (2%N, 0, [T 0; N 0]); (3%N, 0, [T 1]) ].
Lemma Gr_nts : nts_below NSR 1 Gr.
Proof. exact (nts_below_ok NSR 1 Gr eq_refl). Qed.
Lemma Gr_head9 : forall r, In r Gr -> rhead r <> 9.
Proof. apply (nts_fresh NSR _ Gr 9 Gr_nts). lia. Qed.
Lemma Gr_body9 : forall r, In r Gr -> ~ In (N 9) (rbody r).
Proof. apply (nts_fresh NSR _ Gr 9 Gr_nts). lia. Qed.

Example C06_separate_start_preserves_nonvacuous :
  (forall r, In r Gr -> rhead r <> 9) /\ (forall r, In r Gr -> ~ In (N 9) (rbody r)) /\ 9 <> 0 /\
  on_rhs 0 Gr = true /\
  (forall h xs, W (snd (separate_start 9 0 Gr)) (Datatypes.S h) (fst (separate_start 9 0 Gr)) xs
     = if on_rhs 0 Gr then W Gr h 0 xs else W Gr (Datatypes.S h) 0 xs) /\
  W (snd (separate_start 9 0 Gr)) 4 (fst (separate_start 9 0 Gr)) [0; 0; 1] = 12%N.
Proof.
  refine (conj Gr_head9 (conj Gr_body9 (conj (Nat.neq_succ_0 8) (conj eq_refl (conj _ eq_refl))))).
  (* the theorem *) intros h xs. exact (C06.C06_separate_start_preserves NSR Gr 9 0 h xs Gr_head9 Gr_body9 (Nat.neq_succ_0 8)).
Qed.

(* unfolding the occurrence of A (position 0) in rule 0 (S -> A b) of Gq *)
Definition r0q : rule QcSR := (mkq 1 2, 0, [N 1; T 1]).
Lemma r0q_rule : nth_error Gq 0 = Some r0q. Proof. reflexivity. Qed.
Lemma r0q_sym : nth_error (rbody r0q) 0 = Some (N 1). Proof. reflexivity. Qed.

Example C06_unfold_one_step_nonvacuous :
  nth_error Gq 0 = Some r0q /\ nth_error (rbody r0q) 0 = Some (N 1) /\
  (forall f X xs, UnfoldProofs.gstep QcSR (gen_unfold QcSR 0 0 Gq) f X xs
     = sadd (bsum (UnfoldProofs.kept QcSR 0 Gq) (UnfoldProofs.term QcSR f X xs))
            (if Nat.eqb (rhead r0q) X then smul (rw r0q) (UnfoldProofs.Wb_at QcSR f (UnfoldProofs.gstep QcSR Gq f) 0 (rbody r0q) xs) else s0)) /\
  length (gen_unfold QcSR 0 0 Gq) = 5 /\
  UnfoldProofs.gstep QcSR (gen_unfold QcSR 0 0 Gq) fq 0 [0; 1] = mkq 1 10.
Proof.
  refine (conj r0q_rule (conj r0q_sym (conj (fun f X xs => C06.C06_unfold_one_step QcSR Gq 0 0 r0q 1 f X xs r0q_rule r0q_sym)
          (conj eq_refl _)))).
  qc.
Qed.

Example C06_unfold_preserves_solutions_nonvacuous :
  (forall X xs, fq X xs = UnfoldProofs.gstep QcSR Gq fq X xs) /\
  (forall X xs, UnfoldProofs.gstep QcSR (gen_unfold QcSR 0 0 Gq) fq X xs = fq X xs) /\
  fq 0 [0; 1] = mkq 1 10 /\ fq 0 [1] = mkq 17 42.
Proof.
  refine (conj fq_solves (conj (C06.C06_unfold_preserves_solutions QcSR Gq 0 0 fq fq_solves) (conj _ _))); qc.
Qed.

(* the derivation tree of "a b" in Gq: S -> A b, A -> a *)
Definition tq : tree QcSR :=
  Node 0 r0q (Fcons (Node 2 ((mkq 1 5, 1, [T 0]) : rule QcSR) (Fcons (Leaf 0) Fnil)) (Fcons (Leaf 1) Fnil)).
Lemma tq_wf : twf QcSR Gq (N 0) tq.
Proof. unfold tq, r0q. twf_tac. Qed.
Lemma tq_weight : tweight tq = mkq 1 10.
Proof. qc. Qed.

Example C06_unfold_trees_nonvacuous :
  let G' := gen_unfold QcSR 0 0 Gq in
  let phi := UnfoldTreeProofs.phi QcSR Gq 0 0 r0q 1 in
  let psi := UnfoldTreeProofs.psi QcSR Gq 0 0 r0q 1 in
  nth_error Gq 0 = Some r0q /\ nth_error (rbody r0q) 0 = Some (N 1) /\
  twf QcSR Gq (N 0) tq /\ tyield tq = [0; 1] /\ tweight tq = mkq 1 10 /\
  (twf QcSR G' (N 0) (phi tq) /\ tyield (phi tq) = tyield tq /\ tweight (phi tq) = tweight tq /\
   theight (phi tq) <= theight tq /\ psi (phi tq) = tq) /\
  (twf QcSR Gq (N 0) (psi (phi tq)) /\ tyield (psi (phi tq)) = tyield (phi tq) /\ tweight (psi (phi tq)) = tweight (phi tq) /\
   theight (psi (phi tq)) <= 2 * theight (phi tq) /\ phi (psi (phi tq)) = phi tq) /\
  theight (phi tq) = 1.
Proof.
  intros G' phi psi.
  (* the theorem gives the map phi and its inverse psi; both are used on tq *)
  destruct (C06.C06_unfold_trees QcSR Gq 0 0 r0q 1 r0q_rule r0q_sym) as [A B].
  pose proof (A 0 tq tq_wf) as A1.
  exact (conj r0q_rule (conj r0q_sym (conj tq_wf (conj eq_refl (conj tq_weight (conj A1 (conj (B 0 _ (proj1 A1)) eq_refl))))))).
Qed.

Example C06_unfold_sums_nonvacuous :
  nth_error Gq 0 = Some r0q /\ nth_error (rbody r0q) 0 = Some (N 1) /\
  (forall h X xs,
   W Gq h X xs = bsum (filter (yields xs) (map (UnfoldTreeProofs.phi QcSR Gq 0 0 r0q 1) (trees Gq h X))) tweight /\
   W (gen_unfold QcSR 0 0 Gq) h X xs
     = bsum (filter (yields xs) (map (UnfoldTreeProofs.psi QcSR Gq 0 0 r0q 1) (trees (gen_unfold QcSR 0 0 Gq) h X))) tweight) /\
  length (trees Gq 3 0) = 3 /\ length (trees (gen_unfold QcSR 0 0 Gq) 3 0) = 3.
Proof.
  refine (conj r0q_rule (conj r0q_sym (conj _ (conj _ _)))); [|vm_compute; reflexivity ..].
  (* the theorem (its third and sixth parts) *) intros h X xs.
  destruct (C06.C06_unfold_sums QcSR Gq 0 0 r0q 1 r0q_rule r0q_sym h X xs) as [[_ [_ A]] [_ [_ B]]]. exact (conj A B).
Qed.

(* names for the terminals' nonterminals *)
Definition pt6 (a : nat) : nat := a + 20.
Lemma pt6_inj : forall a b, pt6 a = pt6 b -> a = b.
Proof. unfold pt6. intros. lia. Qed.
Lemma pt6_ge a : 2 <= pt6 a. Proof. unfold pt6. lia. Qed.

Example C06_separate_terminals_trees_nonvacuous :
  let G' := separate_terminals pt6 Gq in
  let phi := SepTermProofs.phi QcSR pt6 Gq in
  let psi := SepTermProofs.psi QcSR Gq in
  (forall a b, pt6 a = pt6 b -> a = b) /\
  (forall a r, In r Gq -> rhead r <> pt6 a /\ ~ In (N (pt6 a)) (rbody r)) /\
  twf QcSR Gq (N 0) tq /\
  (twf QcSR G' (N 0) (phi tq) /\ tyield (phi tq) = tyield tq /\ tweight (phi tq) = tweight tq /\
   theight (phi tq) <= Datatypes.S (theight tq) /\ psi (phi tq) = tq) /\
  (forall a, 0 <> pt6 a) /\
  (twf QcSR Gq (N 0) (psi (phi tq)) /\ tyield (psi (phi tq)) = tyield (phi tq) /\ tweight (psi (phi tq)) = tweight (phi tq) /\
   theight (psi (phi tq)) <= theight (phi tq) /\ phi (psi (phi tq)) = phi tq) /\
  theight (phi tq) = 2 /\ length G' = 5.
Proof.
  intros G' phi psi.
  refine (conj pt6_inj (hyp_then _ (fun Hf => conj tq_wf _))).
  - (* the names pt6 a are fresh for Gq *) intros a r H. exact (conj (proj1 (Gq_fresh pt6 pt6_ge) r a H) (proj2 (Gq_fresh pt6 pt6_ge) r a H)).
  - (* the theorem gives phi and its inverse psi; both are used on tq *)
    destruct (C06.C06_separate_terminals_trees QcSR pt6 Gq pt6_inj Hf) as [A B].
    pose proof (A 0 tq tq_wf) as A1. assert (H0 : forall a, 0 <> pt6 a) by (unfold pt6; intros; lia).
    exact (conj A1 (conj H0 (conj (B 0 _ H0 (proj1 A1)) (conj eq_refl eq_refl)))).
Qed.

(* a grammar with a long body: S -> A b A a (1/2), A -> a (1/5) | eps (1/7) *)
Definition G3 : grammar QcSR :=
  [ (mkq 1 2, 0, [N 1; T 1; N 1; T 0]); (mkq 1 5, 1, [T 0]); (mkq 1 7, 1, []) ].
Definition f3 : nat -> list nat -> QcSR := W G3 3.
Lemma f3_solves : FoldProofs.solves QcSR G3 f3.
Proof.
  apply (StableSolves.ranked_solves_bound QcSR (fun X => 2 - X)); [apply rankedb_ok; reflexivity|intros X; lia].
Qed.
Definition t3 : tree QcSR :=
  Node 0 ((mkq 1 2, 0, [N 1; T 1; N 1; T 0]) : rule QcSR)
    (Fcons (Node 1 ((mkq 1 5, 1, [T 0]) : rule QcSR) (Fcons (Leaf 0) Fnil))
    (Fcons (Leaf 1) (Fcons (Node 2 ((mkq 1 7, 1, []) : rule QcSR) Fnil) (Fcons (Leaf 0) Fnil)))).
Lemma t3_wf : twf QcSR G3 (N 0) t3.
Proof. unfold t3. twf_tac. Qed.
Lemma G3_below : nts_below QcSR 5 G3.
Proof. exact (nts_below_ok QcSR 5 G3 eq_refl). Qed.

Example C06_binarize_trees_nonvacuous :
  let G' := binarize 5 G3 in
  let phi := BinTreeProofs.phi QcSR 5 G3 in
  let psi := BinTreeProofs.psi QcSR 5 G3 in
  (forall r, In r G3 -> rhead r < 5) /\ (forall r Y, In r G3 -> In (N Y) (rbody r) -> Y < 5) /\
  twf QcSR G3 (N 0) t3 /\ tyield t3 = [0; 1; 0] /\ tweight t3 = mkq 1 70 /\
  (twf QcSR G' (N 0) (phi t3) /\ tyield (phi t3) = tyield t3 /\ tweight (phi t3) = tweight t3 /\
   theight (phi t3) <= BinTreeProofs.hb QcSR G3 (theight t3) /\ psi (phi t3) = t3) /\
  (twf QcSR G3 (N 0) (psi (phi t3)) /\ tyield (psi (phi t3)) = tyield (phi t3) /\ tweight (psi (phi t3)) = tweight (phi t3) /\
   theight (psi (phi t3)) <= theight (phi t3) /\ phi (psi (phi t3)) = phi t3) /\
  length G' = 5 /\ theight (phi t3) = 4.
Proof.
  intros G' phi psi. destruct G3_below as [Hh Hb].
  refine (conj Hh (conj Hb (conj t3_wf (conj eq_refl (conj _ _))))).
  - (* the weight of t3 *) qc.
  - (* the theorem gives phi and its inverse psi; both are used on t3 *)
    destruct (C06.C06_binarize_trees QcSR 5 G3 Hh Hb) as [A B].
    pose proof (A 0 t3 t3_wf) as A1.
    exact (conj A1 (conj (B 0 _ (Nat.lt_0_succ 4) (proj1 A1)) (conj eq_refl eq_refl))).
Qed.

Example C06_binarize_solutions_nonvacuous :
  (forall r, In r G3 -> rhead r < 5) /\ (forall r Y, In r G3 -> In (N Y) (rbody r) -> Y < 5) /\
  FoldProofs.solves QcSR G3 f3 /\
  FoldProofs.solves QcSR (binarize 5 G3) (FoldProofs.binarize_ext QcSR 5 G3 f3) /\
  (forall Z xs, Z < 5 -> FoldProofs.binarize_ext QcSR 5 G3 f3 Z xs = f3 Z xs) /\
  (forall Z xs, Z < 5 -> FoldProofs.binarize_ext QcSR 5 G3 f3 Z xs
                         = UnfoldProofs.gstep QcSR G3 (FoldProofs.binarize_ext QcSR 5 G3 f3) Z xs) /\
  f3 0 [0; 1; 0] = mkq 1 70.
Proof.
  destruct G3_below as [Hh Hb].
  refine (conj Hh (conj Hb (conj f3_solves _))).
  (* the theorem: f3 extends to a solution of the binarized grammar, and such a solution restricts to one of G3 *)
  destruct (C06.C06_binarize_solutions QcSR 5 G3 Hh Hb) as [A B]. destruct (A f3 f3_solves) as [A1 A2].
  refine (conj A1 (conj A2 (conj (B _ A1) _))). qc.
Qed.

Example C06_separate_terminals_solutions_nonvacuous :
  (forall p q, pt6 p = pt6 q -> p = q) /\
  (forall r a, In r Gq -> In a (terminals_of Gq) -> rhead r <> pt6 a) /\
  (forall r a, In r Gq -> In a (terminals_of Gq) -> ~ In (N (pt6 a)) (rbody r)) /\
  terminals_of Gq = [1] /\
  FoldProofs.solves QcSR Gq fq /\
  FoldProofs.solves QcSR (separate_terminals pt6 Gq) (FoldProofs.sep_ext QcSR pt6 Gq fq) /\
  (forall Z ys, (forall a, In a (terminals_of Gq) -> Z <> pt6 a) -> FoldProofs.sep_ext QcSR pt6 Gq fq Z ys = fq Z ys) /\
  (forall Z xs, (forall a, In a (terminals_of Gq) -> Z <> pt6 a) ->
     FoldProofs.sep_ext QcSR pt6 Gq fq Z xs = UnfoldProofs.gstep QcSR Gq (FoldProofs.sep_ext QcSR pt6 Gq fq) Z xs).
Proof.
  refine (conj pt6_inj (hyp_then _ (fun H1 => hyp_then _ (fun H2 => conj eq_refl (conj fq_solves _))))).
  - (* heads *) intros r a H _. exact (proj1 (Gq_fresh pt6 pt6_ge) r a H).
  - (* bodies *) intros r a H _. exact (proj2 (Gq_fresh pt6 pt6_ge) r a H).
  - (* the theorem: fq extends to a solution of the new grammar, and such a solution restricts to one of Gq *)
    destruct (C06.C06_separate_terminals_solutions QcSR pt6 Gq pt6_inj H1 H2) as [A B].
    destruct (A fq fq_solves) as [A1 A2]. exact (conj A1 (conj A2 (B _ A1))).
Qed.

(* names for the null-free copies of the nonterminals *)
Definition nn6 (X : nat) : nat := X + 30.
Example C06_nullaryremove_solutions_nonvacuous :
  let nullw := fun X => fq X [] in
  (forall p q, nn6 p = nn6 q -> p = q) /\ (forall X, 0 <> nn6 X) /\
  (forall r X, In r Gq -> rhead r <> nn6 X) /\ (forall r X, In r Gq -> ~ In (N (nn6 X)) (rbody r)) /\
  (forall r, In r Gq -> ~ In (N 0) (rbody r)) /\
  FoldProofs.solves QcSR Gq fq /\ (forall X, fq X [] = nullw X) /\ nullw 1 = mkq 1 7 /\
  FoldProofs.solves QcSR (push_null_weights nullw nn6 0 Gq) (NullUnaryProofs.pn_ext QcSR nullw nn6 0 Gq fq) /\
  (forall xs, NullUnaryProofs.pn_ext QcSR nullw nn6 0 Gq fq 0 xs = fq 0 xs) /\
  NullUnaryProofs.pn_ext QcSR nullw nn6 0 Gq fq (nn6 1) [0] = fq 1 [0] /\
  NullUnaryProofs.pn_ext QcSR nullw nn6 0 Gq fq (nn6 1) [] = s0 /\
  push_null_weights nullw nn6 0 Gq
    = [ (mkq 1 2, 0, [N (nn6 1); T 1]); (mkq 1 14, 0, [T 1]); (mkq 1 3, 0, [T 1]); (mkq 1 5, nn6 1, [T 0]) ].
Proof.
  intros nullw.
  refine (hyp_then _ (fun Hi => hyp_then _ (fun Hs => hyp_then _ (fun H1 => hyp_then _ (fun H2 => hyp_then _ (fun H3 =>
          conj fq_solves (conj (fun X => eq_refl) (conj _ _)))))))).
  - (* nn6 injective *) unfold nn6. intros. lia.
  - (* the start symbol is none of the new names *) unfold nn6. intros. lia.
  - (* the new names are no heads of Gq *) apply Gq_fresh. unfold nn6. intros. lia.
  - (* nor in its bodies *) apply Gq_fresh. unfold nn6. intros. lia.
  - (* the start symbol is on no right-hand side *) apply TrimProofs.start_not_on_rhs_spec. reflexivity.
  - (* the null weight of A *) qc.
  - (* the theorem, at the nullable symbol 1, and the new grammar *)
    destruct (C06.C06_nullaryremove_solutions QcSR nullw nn6 0 Gq fq Hi Hs H1 H2 H3 fq_solves (fun X => eq_refl)) as [A [B [C _]]].
    assert (Hn : nullw 1 <> s0) by (vm_compute; discriminate).
    refine (conj A (conj B (conj (C 1 [0] Hn (Nat.neq_succ_0 0)) (conj (C 1 [] Hn (Nat.neq_succ_0 0)) _)))). vm_compute. reflexivity.
Qed.

(* a grammar with a unary cycle S -> S (1/2) and a unary chain S -> A (1/4); closure table K = (I - U)^-1 *)
Definition Gu : grammar QcSR :=
  [ (mkq 1 2, 0, [N 0]); (mkq 1 4, 0, [N 1]); (mkq 1 3, 1, [T 0]); (mkq 1 5, 0, [T 1]) ].
Definition Ku (Y X : nat) : QcSR :=
  match Y, X with 0, 0 => mkq 2 1 | 0, 1 => mkq 1 2 | 1, 1 => mkq 1 1 | _, _ => mkq 0 1 end.
Example C06_unaryremove_solutions_nonvacuous :
  NoDup [0; 1] /\ (forall r, In r Gu -> In (rhead r) [0; 1]) /\
  (forall r Z, In r Gu -> rbody r = [N Z] -> In Z [0; 1]) /\
  (forall Y X, In Y [0; 1] -> In X [0; 1] ->
     Ku Y X = sadd (if Nat.eqb Y X then s1 else s0) (bsum [0; 1] (fun Z => smul (NullUnaryProofs.Umat QcSR Gu Y Z) (Ku Z X)))) /\
  (forall f', FoldProofs.solves QcSR (unaryremove Ku [0; 1] Gu) f' -> FoldProofs.solves QcSR Gu f') /\
  unaryremove Ku [0; 1] Gu = [ (mkq 1 6, 0, [T 0]); (mkq 1 3, 1, [T 0]); (mkq 2 5, 0, [T 1]) ].
Proof.
  destruct (nts_below_ok QcSR 2 Gu eq_refl) as [Hh Hb].
  assert (In2 : forall Z, Z < 2 -> In Z [0; 1]) by (intros [|[|Z]] HZ; cbn; [tauto ..|lia]).
  refine (conj nodup01 (hyp_then _ (fun H1 => hyp_then _ (fun H2 => hyp_then _ (fun H3 => conj _ _))))).
  - (* heads *) intros r H. exact (In2 _ (Hh r H)).
  - (* unary bodies *) intros r Z H E. apply In2, (Hb r Z H). rewrite E. left. reflexivity.
  - (* Ku = I + U Ku, entry by entry *) apply qc_table. vm_compute. reflexivity.
  - (* the theorem *) exact (proj1 (C06.C06_unaryremove_solutions QcSR Gu [0; 1] Ku nodup01 H1 H2 H3)).
  - (* the new grammar *) vm_compute. reflexivity.
Qed.

(* the theorems of props/C07.v that have no example there *)
From GV.model Require Import Cky Useful.
From GV.props Require C07.

(* S -> a S b | A ; A -> a | eps : start on a right-hand side, a nullable symbol, a unary rule, a long body *)
Definition G7 : grammar QcSR :=
  [ (mkq 1 2, 0, [T 0; N 0; T 1]); (mkq 1 3, 0, [N 1]); (mkq 1 5, 1, [T 0]); (mkq 1 7, 1, []) ].
(* The pipeline names its new nonterminals 20, 21 (pt6 0, pt6 1: the terminals a, b), 50 (the one symbol binarize
   adds), 60 (the new start symbol, with the rule 60 -> 0) and 31, 33 (nn7 0, nn7 1: the null-free copies of 0, 1).
   nullw7 gives the weights of the empty string: 1/7 for A, 1/3 * 1/7 for S, and the same for 60. *)
Definition nn7 (X : nat) : nat := 2 * X + 31.
Definition nullw7 (X : nat) : QcSR := match X with 0 => mkq 1 21 | 1 => mkq 1 7 | 60 => mkq 1 21 | _ => mkq 0 1 end.
(* closure of the unary graph of the null-free grammar: 60 -> 31 (1), 31 -> 33 (1/3), 50 -> 20 (1/21) *)
Definition K7 (Y X : nat) : QcSR :=
  if Nat.eqb Y X then mkq 1 1 else
  match Y, X with 60, 31 => mkq 1 1 | 31, 33 => mkq 1 3 | 60, 33 => mkq 1 3 | 50, 20 => mkq 1 21 | _, _ => mkq 0 1 end.

(* nothing but 60 itself reaches the start symbol 60: the rows below 61 by evaluating the column; a row index
   beyond every pattern of K7 falls through them by computation *)
Lemma K7_col60 Y : Y <> 60 -> K7 Y 60 = s0.
Proof.
  intros HY. destruct (le_lt_dec 61 Y) as [L|L].
  - replace Y with (61 + (Y - 61)) by lia. reflexivity.
  - assert (T : forallb (fun Y => (Y =? 60) || Qeq_bool (K7 Y 60) 0%Qc) (seq 0 61) = true) by (vm_compute; reflexivity).
    apply (below_ok _ _ T), orb_true_iff in L.
    destruct L as [L|L]; [apply Nat.eqb_eq in L; contradiction|exact (qc_ok _ _ L)].
Qed.

Example C07_cnf_pipeline_nonvacuous :
  let G1 := separate_terminals pt6 G7 in
  let G2 := binarize 50 G1 in
  let s2 := fst (separate_start 60 0 G2) in
  let G3 := snd (separate_start 60 0 G2) in
  let G4 := push_null_weights nullw7 nn7 s2 G3 in
  let nts := nodup Nat.eq_dec (map rhead G4) in
  let G5 := unaryremove K7 nts G4 in
  (forall r, In r G2 -> ~ In (N 60) (rbody r)) /\ 60 <> 0 /\
  (forall x, nn7 x <> s2) /\ (forall Y, Y <> s2 -> K7 Y s2 = s0) /\
  (forall r, In r G5 -> exists G4', (forall r', In r' G4' -> In r' G4) /\ In r (unaryremove K7 nts G4')) /\
  in_cnf s2 G5 = true /\ s2 = 60 /\ length G4 = 9 /\ length G5 = 10.
Proof.
  intros G1 G2 s2 G3 G4 nts G5.
  (* the start symbol 0 occurs in a body of G2, so separate_start introduces 60: s2 = 60 by computation *)
  refine (hyp_then _ (fun H1 => conj (Nat.neq_succ_0 59) (hyp_then _ (fun H3 => hyp_then _ (fun H4 => hyp_then _ (fun H5 =>
          conj _ (conj eq_refl (conj _ _)))))))).
  - (* 60 is in no body of G2 *) apply TrimProofs.start_not_on_rhs_spec. vm_compute. reflexivity.
  - (* the null-free names are odd *) intros x. change (nn7 x <> 60). unfold nn7. lia.
  - (* nothing but the start symbol reaches it by unary rules *) exact K7_col60.
  - (* every rule of G5 comes from rules of G4: the theorem asks it for any subgrammar G4', here G4 itself *)
    intros r Hr. exists G4. split; [intros r' H; exact H|exact Hr].
  - (* the theorem *) exact (C07.C07_cnf_pipeline QcSR G7 pt6 50 60 0 nullw7 nn7 K7 nts G5 H1 (Nat.neq_succ_0 59) H3 H4 H5).
  - vm_compute. reflexivity.
  - vm_compute. reflexivity.
Qed.

(* The hypotheses of C07_useful_empty_language force G = [] (that is the theorem's conclusion), so the only
   instances are the empty grammar: structurally degenerate. *)
Example C07_useful_empty_language_nonvacuous : (* degenerate instance *)
  all_useful 0 (@nil (rule BoolSR)) = true /\ ~ TrimProofs.productive (@nil (rule BoolSR)) 0.
Proof. split; [reflexivity|]. intros H. inversion H as [r Hr Hb Hh]. destruct Hr. Qed.

Example C07_transform_shapes_nonvacuous :
  (forall r, In r Gr -> ~ In (N 9) (rbody r)) /\ 9 <> 0 /\
  start_not_on_rhs (fst (separate_start 9 0 Gr)) (snd (separate_start 9 0 Gr)) = true /\
  fst (separate_start 9 0 Gr) = 9.
Proof.
  (* the theorem (its last part) *)
  exact (conj Gr_body9 (conj (Nat.neq_succ_0 8)
    (conj (proj2 (proj2 (proj2 (proj2 (C07.C07_transform_shapes NSR Gr)))) 9 0 Gr_body9 (Nat.neq_succ_0 8)) eq_refl))).
Qed.

From GV.model Require Import Agenda2 Expect.
From GV.gen Require Import Gen_Exprs.
From GV.proofs Require ExpectProofs.
From GV.props Require C08.

(* S -> A a (2), A -> eps (3) over N; terminals [0].  Three pops: (T 0, 1), (N 1, 3), (N 0, 6).
   [astep … chart u v rest] is one turn of the agenda loop: (u, v) has been popped, [rest] is what stays pending
   (here written out, so that each st is a closed term); [pops_tac] checks that the agenda before the turn is
   (u, v) plus [rest], symbol by symbol. *)
Definition Ga : grammar NSR := [ (2%N, 0, [N 1; T 0]); (3%N, 1, []) ].
Definition st0 : astate NSR := ainit Ga [0].
Definition st1 : astate NSR := astep (agenda_sel NSR) (agenda_new NSR) Ga (fst st0) (T 0) 1%N [(N 1, 3%N)].
Definition st2 : astate NSR := astep (agenda_sel NSR) (agenda_new NSR) Ga (fst st1) (N 1) 3%N [].
Definition st3 : astate NSR := astep (agenda_sel NSR) (agenda_new NSR) Ga (fst st2) (N 0) 6%N [].
Ltac pops_tac := let x := fresh "x" in intros x; destruct x as [[|[|?]]|[|[|?]]]; vm_compute; reflexivity.
Lemma reach1 : areach (agenda_sel NSR) (agenda_new NSR) Ga [0] st1.
Proof. apply (areach_step NSR _ _ Ga [0] (fst st0) (snd st0)); [exact (areach_init NSR _ _ Ga [0])|pops_tac]. Qed.
Lemma reach2 : areach (agenda_sel NSR) (agenda_new NSR) Ga [0] st2.
Proof. apply (areach_step NSR _ _ Ga [0] (fst st1) (snd st1)); [exact reach1|pops_tac]. Qed.
Lemma reach3 : areach (agenda_sel NSR) (agenda_new NSR) Ga [0] st3.
Proof. apply (areach_step NSR _ _ Ga [0] (fst st2) (snd st2)); [exact reach2|pops_tac]. Qed.
Example C08_agenda_invariant_nonvacuous :
  NoDup [0] /\ areach (agenda_sel NSR) (agenda_new NSR) Ga [0] st2 /\ snd st2 = [(N 0, 6%N)] /\ ainv Ga [0] st2.
Proof.
  exact (conj nodup0 (conj reach2 (conj eq_refl (C08.C08_agenda_invariant NSR Ga [0] st2 nodup0 reach2)))).
Qed.

Example C08_agenda_fixpoint_nonvacuous :
  NoDup [0] /\ areach (agenda_sel NSR) (agenda_new NSR) Ga [0] (fst st3, snd st3) /\ (forall x, pend (snd st3) x = s0) /\
  (forall X, fst st3 (N X) = rhs_val Ga (fst st3) X) /\ fst st3 (N 0) = 6%N /\ fst st3 (N 1) = 3%N /\ fst st3 (T 0) = 1%N.
Proof.
  (* the agenda of st3 is empty *)
  exact (conj nodup0 (conj reach3 (conj (fun x => eq_refl)
    (conj (proj2 (C08.C08_agenda_fixpoint NSR Ga [0] (fst st3) (snd st3) nodup0 reach3 (fun x => eq_refl)))
          (conj eq_refl (conj eq_refl eq_refl)))))).
Qed.

Example C08_expectation_tree_nonvacuous :
  twf QcSR Gq (N 0) tq /\
  tweight (ExpectProofs.tlift QcSR tq) = (tweight tq, smul (tweight tq) (nat_s (length (tyield tq)))) /\
  tweight tq = mkq 1 10 /\ smul (tweight tq) (nat_s (length (tyield tq))) = (mkq 1 5 : QcSR).
Proof.
  refine (conj tq_wf (conj (C08.C08_expectation_tree QcSR Gq tq 0 tq_wf) (conj tq_weight _))). qc.
Qed.

From GV.proofs Require ProductProofs.
From GV.proofs Require Import FilterMachine.
From GV.props Require C09 C10.

Example C09_prefix_transducer_nonvacuous :
  NoDup [0; 1] /\ (forall a, In a [1; 1; 0] -> In a [0; 1]) /\ length [1; 1; 0] <= 4 /\
  trel (prefix_transducer (S:=BoolSR) [0; 1]) 4 [1; 1; 0] [1; 0] = false.
Proof.
  refine (conj nodup01 (hyp_then _ (fun H2 => hyp_then _ (fun H3 => _)))).
  - (* the input is over V *) apply incl_ok. reflexivity.
  - (* fuel *) cbn. lia.
  - (* the theorem, evaluated *)
    rewrite (C09.C09_prefix_transducer BoolSR [0; 1] [1; 1; 0] [1; 0] 4 nodup01 H2 H3). reflexivity.
Qed.

(* the epsilon filter over V = [0; 1] with the markers 7 and 8 *)
Lemma neq78 : 7 <> 8. Proof. discriminate. Qed.
Lemma notin7 : ~ In 7 [0; 1]. Proof. apply BlockSolver.memn_false. reflexivity. Qed.
Lemma notin8 : ~ In 8 [0; 1]. Proof. apply BlockSolver.memn_false. reflexivity. Qed.

Example C10_filter_unique_nonvacuous :
  NoDup [0; 1] /\ In 0 [0; 1] /\ 7 <> 8 /\ ~ In 7 [0; 1] /\ ~ In 8 [0; 1] /\ 2 + 1 < 9 /\
  left_moves [MB; MD] = 2 /\ right_moves [MB; MD] = 1 /\ [MB; MD] <> canonical 2 1 /\
  trel (@epsilon_filter NSR 7 8 [0; 1]) 9 (enc_in 7 8 (canonical 2 1) ++ [0]) (enc_out 7 8 (canonical 2 1) ++ [0]) = s1 /\
  trel (@epsilon_filter NSR 7 8 [0; 1]) 9 (enc_in 7 8 [MB; MD] ++ [0]) (enc_out 7 8 [MB; MD] ++ [0]) = s0.
Proof.
  refine (conj nodup01 (conj in0_01 (conj neq78 (conj notin7 (conj notin8 (hyp_then _ (fun H6 =>
          conj eq_refl (conj eq_refl (hyp_then _ (fun Hc => _)))))))))).
  - (* fuel *) cbn. lia.
  - (* a non-canonical interleaving *) discriminate.
  - (* the theorem: the canonical one has weight 1, any other 0 *)
    destruct (C10.C10_filter_unique NSR 7 8 [0; 1] 0 2 1 9 nodup01 in0_01 neq78 notin7 notin8 H6) as [A B].
    exact (conj A (B [MB; MD] eq_refl eq_refl Hc)).
Qed.

Example C10_filter_block_weight_nonvacuous :
  NoDup [0; 1] /\ In 0 [0; 1] /\ 7 <> 8 /\ ~ In 7 [0; 1] /\ ~ In 8 [0; 1] /\ length [MD; MB; MA] < 9 /\
  trel (@epsilon_filter NSR 7 8 [0; 1]) 9 (enc_in 7 8 [MD; MB; MA] ++ [0]) (enc_out 7 8 [MD; MB; MA] ++ [0])
    = (if list_eqb_move [MD; MB; MA] (canonical (left_moves [MD; MB; MA]) (right_moves [MD; MB; MA])) then s1 else s0) /\
  list_eqb_move [MD; MB; MA] (canonical (left_moves [MD; MB; MA]) (right_moves [MD; MB; MA])) = false.
Proof.
  refine (conj nodup01 (conj in0_01 (conj neq78 (conj notin7 (conj notin8 (hyp_then _ (fun H6 => conj _ eq_refl))))))).
  - (* fuel *) cbn. lia.
  - (* the theorem *) exact (C10.C10_filter_block_weight NSR 7 8 [0; 1] 0 [MD; MB; MA] 9 nodup01 in0_01 neq78 notin7 notin8 H6).
Qed.

Example C10_filter_real_symbol_nonvacuous :
  NoDup [0; 1] /\ In 0 [0; 1] /\ 7 <> 8 /\ ~ In 7 [0; 1] /\ ~ In 8 [0; 1] /\ 1 <= 3 /\ 2 <= 2 /\
  trelf (@epsilon_filter NSR 7 8 [0; 1]) 3 2 [0] [0] = s1.
Proof.
  refine (conj nodup01 (conj in0_01 (conj neq78 (conj notin7 (conj notin8 (hyp_then _ (fun H6 => conj (le_n 2) _))))))).
  - lia.
  - (* the theorem *) exact (C10.C10_filter_real_symbol NSR 7 8 [0; 1] 0 2 3 nodup01 in0_01 neq78 notin7 notin8 H6 (le_n 2)).
Qed.

(* first machine: reads 0 and writes 1 0^k (an input-epsilon loop); second: reads 1 0^k, writes 5 *)
Definition ta : fst_t NSR := @mkT NSR [(0, 1%N)] [(1, 1%N)] [(0, Some 0, Some 1, 1, 2%N); (1, None, Some 0, 1, 3%N)].
Definition tb : fst_t NSR := @mkT NSR [(0, 1%N)] [(0, 1%N); (1, 2%N)] [(0, Some 1, Some 5, 1, 5%N); (1, Some 0, None, 1, 7%N)].
Example C10_product_is_relational_composition_nonvacuous :
  NoDup [0; 1] /\
  (forall ar, In ar (tarcs ta) -> exists y, tout ar = Some y /\ In y [0; 1]) /\
  (forall ar, In ar (tarcs tb) -> exists y, tin ar = Some y) /\
  (forall q, (In q (map fst (tinit tb)) \/ In q (map fst (tfinal tb)) \/
              (exists ar, In ar (tarcs tb) /\ (tsrc ar = q \/ tdst ar = q))) -> q < 2) /\
  trel (compose_nf 2 ta tb) 3 [0] [5]
    = bsum (ProductProofs.words_le [0; 1] 3) (fun ys => smul (trel ta 3 [0] ys) (trel tb 3 ys [5])) /\
  trel (compose_nf 2 ta tb) 3 [0] [5] = 9260%N.
Proof.
  refine (conj nodup01 (hyp_then _ (fun H2 => hyp_then _ (fun H3 => hyp_then _ (fun H4 => conj _ _))))).
  - (* ta writes symbols of V on every arc *) intros ar [<-|[<-|[]]]; eexists; (split; [reflexivity|cbn; tauto]).
  - (* tb reads a symbol on every arc *) intros ar [<-|[<-|[]]]; eexists; reflexivity.
  - (* the states of tb are 0 and 1 *)
    intros q [[<-|[]]|[[<-|[<-|[]]]|[ar [[<-|[<-|[]]] [<-|<-]]]]]; repeat constructor.
  - (* the theorem *) exact (C10.C10_product_is_relational_composition NSR 2 [0; 1] ta tb 3 [0] [5] nodup01 H2 H3 H4).
  - (* its value *) vm_compute. reflexivity.
Qed.

From GV.model Require Import Linear Wfsa WfsaEps EpsSpec.
From GV.proofs Require LehmannProof ClosureExtra.
From GV.props Require C11.

(* an automaton with two epsilon arcs (0 -> 1 and 2 -> 3), epsilon-acyclic, with a cycle 2 -eps-> 3 -b-> 2 *)
Definition me : wfsa QcStar := @mkW QcStar [(0, mkq 1 1)] [(2, mkq 1 2)]
  [(0, None, 1, mkq 1 3); (1, Some 0, 2, mkq 1 5); (0, Some 0, 2, mkq 1 7); (2, None, 3, mkq 1 2); (3, Some 1, 2, mkq 1 3)].
(* [me] seen over the plain semiring: epsilon arcs, a cycle, fuel-bounded path sums (C17, C19) *)
Definition me' : wfsa QcSR := me.
Lemma me_pathsum : pathsum_e me' 8 [0; 1] = mkq 11 630.
Proof. qc. Qed.

Example C11_call_is_path_sum_nonvacuous :
  LehmannProof.defined QcStar (states_of me) (eps_mat me) /\
  (forall i k, In i (states_of me) -> In k (states_of me) -> ClosureExtra.fpow QcStar (states_of me) (epsf me) 2 i k = s0) /\
  (length [0; 1] + 1) * 2 + length [0; 1] <= 8 /\
  call me [0; 1] = pathsum_e me 8 [0; 1] /\ call me [0; 1] = mkq 11 630.
Proof.
  (* the fuel 8 is exactly (|xs| + 1) * 2 + |xs| *)
  refine (hyp_then _ (fun H1 => hyp_then _ (fun H2 => conj (le_n 8) (hyp_then _ (fun E => _))))).
  - (* the epsilon closure is defined *) vm_compute. repeat split; discriminate.
  - (* no epsilon path of length 2 *) apply qc_table. vm_compute. reflexivity.
  - (* the theorem *) exact (C11.C11_call_is_path_sum QcStar me 2 [0; 1] 8 H1 H2 (le_n 8)).
  - (* its value *) rewrite E. exact me_pathsum.
Qed.

(* a cyclic graph: 0 -> 0 (1/2), 0 -> 1 (1/3), 1 -> 0 (1/5) *)
Definition Ac : mat QcStar := [ (0, 0, mkq 1 2); (0, 1, mkq 1 3); (1, 0, mkq 1 5) ].
Lemma Ac_defined : LehmannProof.defined QcStar [0; 1] Ac.
Proof. vm_compute. repeat split; discriminate. Qed.
Example C11_closure_fixpoint_nonvacuous :
  NoDup [0; 1] /\ LehmannProof.defined QcStar [0; 1] Ac /\ In 0 [0; 1] /\ In 1 [0; 1] /\
  mget (lehmann [0; 1] Ac) 0 1
    = sadd (fid 0 1) (bsum [0; 1] (fun j => smul (mget Ac 0 j) (mget (lehmann [0; 1] Ac) j 1))) /\
  mget (lehmann [0; 1] Ac) 0 1 = mkq 10 13.
Proof.
  refine (conj nodup01 (conj Ac_defined (conj in0_01 (conj in1_01
          (conj (proj1 (C11.C11_closure_fixpoint QcStar [0; 1] Ac nodup01 Ac_defined 0 1 in0_01 in1_01)) _))))). qc.
Qed.

From GV.proofs Require RationalOps.
From GV.props Require C12.

Definition ma : wfsa QcSR := @mkW QcSR [(0, mkq 1 1)] [(1, mkq 1 2)] [(0, Some 0, 1, mkq 1 3); (1, Some 1, 1, mkq 1 4)].
Definition mb : wfsa QcSR := @mkW QcSR [(0, mkq 1 2)] [(1, mkq 1 1)] [(0, Some 1, 1, mkq 1 5); (0, Some 0, 0, mkq 1 2)].
Lemma ma_eps_free : forall ar, In ar (warcs ma) -> albl ar <> None.
Proof. intros ar [<-|[<-|[]]]; discriminate. Qed.
Lemma mb_eps_free : forall ar, In ar (warcs mb) -> albl ar <> None.
Proof. intros ar [<-|[<-|[]]]; discriminate. Qed.

Example C12_rename_injective_nonvacuous :
  let f := fun q => 3 * q + 2 in
  (forall p q, f p = f q -> p = q) /\ (forall xs, weight (rename f ma) xs = weight ma xs) /\
  weight (rename f ma) [0; 1] = mkq 1 24.
Proof.
  intros f.
  refine (hyp_then _ (fun Hf => conj _ _)).
  - (* f injective *) unfold f. intros. lia.
  - (* the theorem *) intros xs. exact (C12.C12_rename_injective QcSR f ma xs Hf).
  - (* a value *) qc.
Qed.

Example C12_concat_nonvacuous :
  (forall ar, In ar (warcs ma) -> albl ar <> None) /\ (forall ar, In ar (warcs mb) -> albl ar <> None) /\
  length [0; 1; 1] < 4 /\
  pathsum_e (wconcat ma mb) 4 [0; 1; 1] = bsum (splits [0; 1; 1]) (fun p => smul (pathsum ma (fst p)) (pathsum mb (snd p))) /\
  pathsum_e (wconcat ma mb) 4 [0; 1; 1] = mkq 1 240.
Proof.
  refine (conj ma_eps_free (conj mb_eps_free (conj (le_n 4) (conj _ _)))).
  - (* the theorem; the fuel 4 is the length of the input plus one *)
    exact (C12.C12_concat QcSR ma mb [0; 1; 1] 4 ma_eps_free mb_eps_free (le_n 4)).
  - (* its value *) qc.
Qed.

Example C12_plus_nonvacuous :
  (forall ar, In ar (warcs ma) -> albl ar <> None) /\
  (forall i f, In i (winit ma) -> In f (wfinal ma) -> fst i <> fst f) /\
  2 * length [0; 1; 0] < 7 /\
  pathsum_e (wplus ma) 7 [0; 1; 0] = RationalOps.kplus ma (length [0; 1; 0]) [0; 1; 0] /\
  pathsum_e (wplus ma) 7 [0; 1; 0] = mkq 1 144.
Proof.
  refine (conj ma_eps_free (hyp_then _ (fun H2 => conj (le_n 7) (conj _ _)))).
  - (* the initial state 0 is not the final state 1 *) intros i f [<-|[]] [<-|[]]. discriminate.
  - (* the theorem; the fuel 7 is twice the length of the input plus one *)
    exact (C12.C12_plus QcSR ma [0; 1; 0] ma_eps_free H2 7 (le_n 7)).
  - (* its value *) qc.
Qed.

Example C12_one_zero_lift_nonvacuous :
  1 <= 2 /\ pathsum_e (@wone QcSR) 2 [] = s1 /\ pathsum_e (@wone QcSR) 2 [0] = s0.
Proof.
  refine (hyp_then _ (fun H => conj _ _)); [lia|exact (proj1 (C12.C12_one_zero_lift QcSR) _ 2 H) ..].
Qed.

From GV.model Require Import Det TrimW.
From GV.proofs Require TrimWProofs.
From GV.props Require C13.

(* state 2 is a dead end (backward weight zero), state 3 is not accessible *)
Definition m13 : wfsa QcFR := @mkW QcFR [(0, mkq 1 1)] [(1, mkq 1 2)]
  [(0, Some 0, 1, mkq 1 3); (1, Some 1, 1, mkq 1 4); (0, Some 1, 2, mkq 1 5); (3, Some 0, 1, mkq 1 7)].
Definition V13 (q : nat) : QcFR := match q with 0 => mkq 2 9 | 1 => mkq 2 3 | 3 => mkq 2 21 | _ => mkq 0 1 end.
Lemma V13_backward : backward_eq V13 m13.
Proof. intros [|[|[|[|i]]]]; qc. Qed.
(* the states other than 0, 1, 3 have no outgoing arc and are not final *)
Lemma m13_sink q : inb q [0; 1; 3] = false -> TrimWProofs.dead QcFR m13 q.
Proof. destruct q as [|[|[|[|q]]]]; intros H; try discriminate H; intros [|a xs]; qc. Qed.
Lemma m13_dead q : V13 q = s0 -> forall xs, pw m13 q xs = s0.
Proof.
  intros H. apply m13_sink. destruct q as [|[|[|[|q]]]]; try reflexivity; vm_compute in H; discriminate H.
Qed.
Lemma V13_0 : V13 0 <> s0.
Proof. vm_compute. discriminate. Qed.

Example C13_push_stochastic_nonvacuous :
  backward_eq V13 m13 /\ V13 0 <> s0 /\ out_mass (push_with V13 m13) 0 = s1 /\
  V13 2 = s0 /\ out_mass (push_with V13 m13) 2 = s0.
Proof.
  refine (conj V13_backward (conj V13_0 (conj (C13.C13_push_stochastic QcFR V13 m13 0 V13_backward V13_0) (conj _ _)))); qc.
Qed.

Example C13_push_language_nonvacuous :
  backward_eq V13 m13 /\ (forall q, V13 q = s0 -> forall xs, pw m13 q xs = s0) /\
  (forall xs, weight (push_with V13 m13) xs = weight m13 xs) /\ weight m13 [0; 1; 1] = mkq 1 96.
Proof.
  refine (conj V13_backward (conj m13_dead (conj (C13.C13_push_language QcFR V13 m13 V13_backward m13_dead) _))). qc.
Qed.

(* a non-deterministic automaton: two arcs labelled 0 leave state 0 *)
Definition md : wfsa QcFR := @mkW QcFR [(0, mkq 1 1)] [(1, mkq 1 2); (2, mkq 1 3)]
  [(0, Some 0, 1, mkq 1 3); (0, Some 0, 2, mkq 1 5); (1, Some 1, 1, mkq 1 4); (2, Some 1, 1, mkq 1 2)].
Example C13_determinize_invariant_nonvacuous :
  det_defined md (winit md) [0; 1] /\ det_value md [0; 1] = weight md [0; 1] /\ weight md [0; 1] = mkq 11 120.
Proof.
  refine (hyp_then _ (fun H => conj _ _)).
  - (* no residual weight vanishes along 0 1 *) vm_compute. repeat split; discriminate.
  - (* the theorem *) exact (proj2 (C13.C13_determinize_invariant QcFR md [0; 1] H)).
  - (* a value *) qc.
Qed.

Lemma m13_closed : TrimWProofs.closed_succ QcFR m13 [0; 1; 2].
Proof. intros ar [<-|[<-|[<-|[<-|[]]]]] _; reflexivity. Qed.
Lemma m13_init : forall e, In e (winit m13) -> inb (fst e) [0; 1; 2] = true.
Proof. intros e [<-|[]]. reflexivity. Qed.

Example C13_trim_accessible_nonvacuous :
  TrimWProofs.closed_succ QcFR m13 [0; 1; 2] /\ (forall e, In e (winit m13) -> inb (fst e) [0; 1; 2] = true) /\
  (forall xs, weight (wtrim [0; 1; 2] m13) xs = weight m13 xs) /\ length (warcs (wtrim [0; 1; 2] m13)) = 3.
Proof.
  exact (conj m13_closed (conj m13_init (conj (C13.C13_trim_accessible QcFR m13 [0; 1; 2] m13_closed m13_init) eq_refl))).
Qed.

Example C13_trim_dead_nonvacuous :
  (forall q, inb q [0; 1; 3] = false -> TrimWProofs.dead QcFR m13 q) /\
  (forall xs, weight (wtrim [0; 1; 3] m13) xs = weight m13 xs) /\ length (warcs (wtrim [0; 1; 3] m13)) = 3.
Proof.
  exact (conj m13_sink (conj (C13.C13_trim_dead QcFR m13 [0; 1; 3] m13_sink) eq_refl)).
Qed.

Example C13_trim_language_nonvacuous :
  TrimWProofs.closed_succ QcFR m13 [0; 1; 2] /\ (forall e, In e (winit m13) -> inb (fst e) [0; 1; 2] = true) /\
  (forall q, inb q [0; 1] = false -> TrimWProofs.dead QcFR (wtrim [0; 1; 2] m13) q) /\
  (forall xs, weight (wtrim [0; 1] (wtrim [0; 1; 2] m13)) xs = weight m13 xs) /\
  length (warcs (wtrim [0; 1] (wtrim [0; 1; 2] m13))) = 2.
Proof.
  refine (conj m13_closed (conj m13_init (hyp_then _ (fun H3 => conj _ eq_refl)))).
  - (* in the trimmed machine the states from 2 on have no outgoing arc and are not final *)
    intros [|[|q]] H; try discriminate H; intros [|a xs]; qc.
  - (* the theorem *) exact (C13.C13_trim_language QcFR m13 [0; 1; 2] [0; 1] m13_closed m13_init H3).
Qed.

From GV.model Require Tzeng.
From GV.props Require C14.

(* difference automaton of A (one state, loop 1/2 on symbol 0) and B (one state, loop 1/3): not equivalent *)
Definition M14 (a i j : nat) : QcFR :=
  match a, i, j with 0, 0, 0 => mkq 1 2 | 0, 1, 1 => mkq 1 3 | _, _, _ => mkq 0 1 end.
Definition d14 (i : nat) : QcFR := match i with 0 => mkq 1 1 | _ => mkq (-1) 1 end.
Definition eta14 (i : nat) : QcFR := mkq 1 1.
(* A (one state, loop 1/2) against B (two states, each started with 1/2, loops 1/2): equivalent *)
Definition M14e (a i j : nat) : QcFR := if Nat.eqb a 0 && Nat.eqb i j then mkq 1 2 else mkq 0 1.
Definition d14e (i : nat) : QcFR := match i with 0 => mkq 1 1 | _ => mkq (-1) 2 end.
Lemma tzeng14e : Tzeng.counterexample [0; 1; 2] M14e d14e eta14 [0] 5 = Some None.
Proof. vm_compute. reflexivity. Qed.

(* the search finds the word 0 (weight 1/2 - 1/3); the weight is left abstract so that no canonicity proof is compared *)
Lemma tzeng14 : exists w v, Tzeng.counterexample [0; 1] M14 d14 eta14 [0; 1] 5 = Some (Some (w, v)) /\ w = [0].
Proof.
  destruct (Tzeng.counterexample [0; 1] M14 d14 eta14 [0; 1] 5) as [[[w v]|]|] eqn:E;
    [|vm_compute in E; discriminate E ..].
  exists w, v. split; [reflexivity|vm_compute in E; congruence].
Qed.

Example C14_counterexample_sound_nonvacuous :
  exists w v, Tzeng.counterexample [0; 1] M14 d14 eta14 [0; 1] 5 = Some (Some (w, v)) /\ w = [0] /\
    v = Tzeng.dot [0; 1] d14 (Tzeng.act [0; 1] M14 w eta14) /\ v <> s0 /\ (forall a, In a w -> In a [0; 1]) /\
    v = mkq 1 6.
Proof.
  destruct tzeng14 as [w [v [E Hw]]]. exists w, v.
  (* the theorem, then the value *)
  destruct (C14.C14_counterexample_sound QcFR [0; 1] M14 d14 eta14 [0; 1] 5 w v E) as [A [B C]].
  refine (conj E (conj Hw (conj A (conj B (conj C _))))). rewrite A, Hw. qc.
Qed.

Example C14_none_means_equivalent_nonvacuous :
  Tzeng.counterexample [0; 1; 2] M14e d14e eta14 [0] 5 = Some None /\
  (forall w, (forall a, In a w -> In a [0]) -> Tzeng.dot [0; 1; 2] d14e (Tzeng.act [0; 1; 2] M14e w eta14) = s0) /\
  Tzeng.dot [0; 1; 2] (fun i => if Nat.eqb i 0 then d14e i else s0) (Tzeng.act [0; 1; 2] M14e [0; 0] eta14) = mkq 1 4.
Proof.
  refine (conj tzeng14e (conj (C14.C14_none_means_equivalent QcFR [0; 1; 2] M14e d14e eta14 [0] 5 tzeng14e) _)). qc.
Qed.

Example C14_rational_instance_nonvacuous :
  (exists w v, Tzeng.counterexample (F:=QcFR) [0; 1] M14 d14 eta14 [0; 1] 5 = Some (Some (w, v)) /\
     v = Tzeng.dot (F:=QcFR) [0; 1] d14 (Tzeng.act (F:=QcFR) [0; 1] M14 w eta14) /\ v <> 0%Qc) /\
  Tzeng.counterexample (F:=QcFR) [0; 1; 2] M14e d14e eta14 [0] 5 = Some None /\
  (forall w, (forall a, In a w -> In a [0]) ->
     Tzeng.dot (F:=QcFR) [0; 1; 2] d14e (Tzeng.act (F:=QcFR) [0; 1; 2] M14e w eta14) = 0%Qc).
Proof.
  refine (conj _ (conj tzeng14e _)).
  - (* the theorem, first part *) destruct tzeng14 as [w [v [E _]]]. exists w, v.
    exact (conj E (proj1 (C14.C14_rational_instance [0; 1] M14 d14 eta14 [0; 1] 5) w v E)).
  - (* second part *) exact (proj2 (C14.C14_rational_instance [0; 1; 2] M14e d14e eta14 [0] 5) tzeng14e).
Qed.

From GV.proofs Require BlockSolver.
From GV.props Require C15.

Example C15_lehmann_fixpoint_nonvacuous :
  NoDup [0; 1] /\ LehmannProof.defined QcStar [0; 1] Ac /\ In 1 [0; 1] /\ In 0 [0; 1] /\
  mget (lehmann [0; 1] Ac) 1 0
    = sadd (fid 1 0) (bsum [0; 1] (fun j => smul (mget (lehmann [0; 1] Ac) 1 j) (mget Ac j 0))) /\
  mget (lehmann [0; 1] Ac) 0 0 = mkq 30 13.
Proof.
  refine (conj nodup01 (conj Ac_defined (conj in1_01 (conj in0_01
          (conj (proj2 (C15.C15_lehmann_fixpoint QcStar [0; 1] Ac nodup01 Ac_defined 1 0 in1_01 in0_01)) _))))). qc.
Qed.

(* the |N| = 1 shortcut: a single node with a self loop of weight 1/2 *)
Example C15_closure_fixpoint_nonvacuous :
  let A1 : mat QcStar := [ (4, 4, mkq 1 2) ] in
  NoDup [4] /\ (match [4] with [i] => sdef QcStar (mget A1 i i) | _ => LehmannProof.defined QcStar [4] A1 end) /\ In 4 [4] /\
  mget (closure [4] A1) 4 4 = sadd (fid 4 4) (bsum [4] (fun j => smul (mget A1 4 j) (mget (closure [4] A1) j 4))) /\
  mget (closure [4] A1) 4 4 = mkq 2 1.
Proof.
  intros A1.
  refine (conj (nodup_ok [4] eq_refl) (hyp_then _ (fun H2 => conj (or_introl eq_refl) (conj _ _)))).
  - (* for a single node the theorem asks only that the star of the self loop is defined *) vm_compute. discriminate.
  - (* the theorem *)
    exact (C15.C15_closure_fixpoint QcStar [4] A1 (nodup_ok [4] eq_refl) H2 4 4 (or_introl eq_refl) (or_introl eq_refl)).
  - (* a value *) qc.
Qed.

(* an acyclic graph: 0 -> 1 (1/2), 1 -> 2 (1/3), 0 -> 2 (1/5): A^3 = 0 *)
Definition Aa : mat QcStar := [ (0, 1, mkq 1 2); (1, 2, mkq 1 3); (0, 2, mkq 1 5) ].
Example C15_acyclic_is_power_sum_nonvacuous :
  NoDup [0; 1; 2] /\ LehmannProof.defined QcStar [0; 1; 2] Aa /\
  (forall i k, In i [0; 1; 2] -> In k [0; 1; 2] -> ClosureExtra.fpow QcStar [0; 1; 2] (mget Aa) 3 i k = s0) /\
  In 0 [0; 1; 2] /\ In 2 [0; 1; 2] /\
  mget (lehmann [0; 1; 2] Aa) 0 2 = bsum (seq 0 3) (fun m => ClosureExtra.fpow QcStar [0; 1; 2] (mget Aa) m 0 2) /\
  mget (lehmann [0; 1; 2] Aa) 0 2 = mkq 11 30.
Proof.
  refine (conj nodup3 (hyp_then _ (fun H2 => hyp_then _ (fun H3 => conj in0_3 (conj in2_3 (conj _ _)))))).
  - (* the closure is defined *) vm_compute. repeat split; discriminate.
  - (* A^3 = 0, entry by entry *) apply qc_table. vm_compute. reflexivity.
  - (* the theorem *) exact (C15.C15_acyclic_is_power_sum QcStar [0; 1; 2] Aa 3 nodup3 H2 H3 0 2 in0_3 in2_3).
  - (* its value *) qc.
Qed.

Definition Abool : mat BoolStar := [ (0, 1, true); (1, 2, true); (2, 1, true) ].
Example C15_bool_reachability_nonvacuous :
  NoDup [0; 1; 2] /\ In 0 [0; 1; 2] /\ In 2 [0; 1; 2] /\
  mget (lehmann [0; 1; 2] Abool) 0 2 = true /\ ClosureExtra.reachN [0; 1; 2] Abool 0 2 /\
  mget (lehmann [0; 1; 2] Abool) 2 0 = false /\ ~ ClosureExtra.reachN [0; 1; 2] Abool 2 0.
Proof.
  refine (conj nodup3 (conj in0_3 (conj in2_3 (hyp_then _ (fun E1 => conj _ (hyp_then _ (fun E2 => _))))))).
  - vm_compute. reflexivity.
  - (* the theorem, for 0 and 2 *) exact (proj1 (C15.C15_bool_reachability [0; 1; 2] Abool 0 2 nodup3 in0_3 in2_3) E1).
  - vm_compute. reflexivity.
  - (* the theorem, for 2 and 0 *)
    intros R. apply (C15.C15_bool_reachability [0; 1; 2] Abool 2 0 nodup3 in2_3 in0_3) in R. rewrite E2 in R. discriminate R.
Qed.

(* two strongly connected components {0, 1} (a cycle) and {2} (a self loop), edges going forward *)
Definition Ab : mat QcStar := [ (0, 1, mkq 1 2); (1, 0, mkq 1 3); (1, 2, mkq 1 5); (2, 2, mkq 1 7) ].
Definition bb : vec QcStar := [ (0, mkq 1 1) ].
Lemma Ab_outside : forall i k, ~ In i [0; 1; 2] \/ ~ In k [0; 1; 2] -> mget Ab i k = s0.
Proof.
  assert (T : forall i k, memn i [0; 1; 2] && memn k [0; 1; 2] = false -> mget Ab i k = s0)
    by (intros [|[|[|i]]] [|[|[|k]]] E; first [discriminate E|reflexivity]).
  intros i k H. apply T, andb_false_iff. rewrite !BlockSolver.memn_false. exact H.
Qed.

Example C15_block_solvers_nonvacuous :
  let blocks := [[0; 1]; [2]] in
  NoDup [0; 1; 2] /\ is_partition [0; 1; 2] blocks = true /\ forward_edges [0; 1; 2] blocks Ab = true /\
  (forall i k, ~ In i [0; 1; 2] \/ ~ In k [0; 1; 2] -> mget Ab i k = s0) /\
  (forall blk, In blk blocks -> forall i k, In i blk -> In k blk ->
      mget (block_closure blk Ab) i k = sadd (fid i k) (bsum blk (fun j => smul (mget (block_closure blk Ab) i j) (mget Ab j k)))) /\
  (forall blk, In blk blocks -> forall i k, In i blk -> In k blk ->
      mget (block_closure blk Ab) i k = sadd (fid i k) (bsum blk (fun j => smul (mget Ab i j) (mget (block_closure blk Ab) j k)))) /\
  (forall k, In k [0; 1; 2] ->
     vget (solve_left [0; 1; 2] blocks Ab bb) k
       = sadd (vget bb k) (bsum [0; 1; 2] (fun i => smul (vget (solve_left [0; 1; 2] blocks Ab bb) i) (mget Ab i k)))) /\
  (forall k, In k [0; 1; 2] ->
     vget (solve_right [0; 1; 2] blocks Ab bb) k
       = sadd (vget bb k) (bsum [0; 1; 2] (fun i => smul (mget Ab k i) (vget (solve_right [0; 1; 2] blocks Ab bb) i)))) /\
  vget (solve_left [0; 1; 2] blocks Ab bb) 2 = mkq 7 50.
Proof.
  intros blocks.
  refine (conj nodup3 (hyp_then _ (fun H2 => hyp_then _ (fun H3 => conj Ab_outside (hyp_then _ (fun HL => hyp_then _ (fun HR => _))))))).
  - (* the blocks partition the nodes *) reflexivity.
  - (* edges go forward *) vm_compute. reflexivity.
  - (* each block closure solves its left equation, entry by entry *)
    intros blk [<-|[<-|[]]]; apply qc_table; vm_compute; reflexivity.
  - (* and its right equation *) intros blk [<-|[<-|[]]]; apply qc_table; vm_compute; reflexivity.
  - (* the theorem, then a value *)
    destruct (C15.C15_block_solvers QcStar [0; 1; 2] blocks Ab bb nodup3 H2 H3 Ab_outside) as [A B].
    refine (conj (A HL) (conj (B HR) _)). qc.
Qed.

Example C15_scc_checker_sound_nonvacuous :
  let bs := [[0; 1]; [2]] in
  NoDup [0; 1; 2] /\ scc_check [0; 1; 2] bs Ab = true /\ scc_check [0; 1; 2] [[0]; [1]; [2]] Ab = false /\
  NoDup (concat bs) /\ (forall b i k, In b bs -> In i b -> In k b -> ClosureExtra.reachN b (adj_bool b Ab) i k).
Proof.
  intros bs.
  (* the checker accepts the components and rejects the singletons *)
  refine (conj nodup3 (hyp_then _ (fun H => conj _ _))); [vm_compute; reflexivity ..|].
  (* the theorem (two of its four parts) *)
  destruct (C15.C15_scc_checker_sound QcStar [0; 1; 2] bs Ab nodup3 H) as [_ [A [_ B]]]. exact (conj A B).
Qed.

From GV.model Require Import Bytes.
From GV.proofs Require ConvertProofs.
From GV.props Require C17.

Definition nt17 (p : nat) : nat := p + 1.
Lemma nt17_inj : forall p p', nt17 p = nt17 p' -> p = p'.
Proof. unfold nt17. intros. lia. Qed.
Lemma nt17_pos : forall p, nt17 p <> 0.
Proof. unfold nt17. intros. lia. Qed.

Example C17_to_cfg_right_nonvacuous :
  (forall p p', nt17 p = nt17 p' -> p = p') /\ (forall p, nt17 p <> 0) /\
  (forall f xs q, W (to_cfg_right 0 nt17 me') (Datatypes.S f) (nt17 q) xs = pwe me' f q xs) /\
  (forall f xs, W (to_cfg_right 0 nt17 me') (Datatypes.S (Datatypes.S f)) 0 xs = pathsum_e me' f xs) /\
  W (to_cfg_right 0 nt17 me') 10 0 [0; 1] = mkq 11 630 /\ length (to_cfg_right 0 nt17 me') = 7.
Proof.
  (* the theorem; the value is that of the path sum, through the theorem's own equation: a path sum is far smaller
     to evaluate than W on the converted grammar at height 10 *)
  pose proof (fun f xs => C17.C17_to_cfg_right QcSR me' 0 nt17 f xs nt17_inj nt17_pos) as R.
  refine (conj nt17_inj (conj nt17_pos (conj (fun f xs q => proj1 (R f xs) q) (conj (fun f xs => proj2 (R f xs)) (conj _ eq_refl))))).
  rewrite <- me_pathsum. exact (proj2 (R 8 [0; 1])).
Qed.

Example C17_to_cfg_left_nonvacuous :
  (forall p p', nt17 p = nt17 p' -> p = p') /\ (forall p, nt17 p <> 0) /\
  (forall f xs q, W (to_cfg_left 0 nt17 me') (Datatypes.S f) (nt17 q) xs = ConvertProofs.pwb me' f q (rev xs)) /\
  (forall f xs, W (to_cfg_left 0 nt17 me') (Datatypes.S (Datatypes.S f)) 0 xs = ConvertProofs.pathsum_b me' f xs) /\
  W (to_cfg_left 0 nt17 me') 10 0 [0; 1] = mkq 11 630.
Proof.
  (* the theorem; the value as in C17_to_cfg_right_nonvacuous, from the backward path sum *)
  pose proof (fun f xs => C17.C17_to_cfg_left QcSR me' 0 nt17 f xs nt17_inj nt17_pos) as R.
  refine (conj nt17_inj (conj nt17_pos (conj (fun f xs q => proj1 (R f xs) q) (conj (fun f xs => proj1 (proj2 (R f xs))) _)))).
  assert (E : ConvertProofs.pathsum_b me' 8 [0; 1] = mkq 11 630) by qc.
  rewrite <- E. exact (proj1 (proj2 (R 8 [0; 1]))).
Qed.

(* symbol 0 is encoded by two bytes, symbol 1 by one byte; chain states are named by an injective pairing >= 100 *)
Definition enc17 (a : nat) : list nat := match a with 0 => [200; 129] | _ => [65] end.
Definition fresh17 (k i : nat) : nat := (k + i) * (k + i) + k + 100.
Lemma sq_gap s s' : s < s' -> s * s + (s + s) < s' * s'.
Proof.
  intros L. apply Nat.lt_le_trans with (Datatypes.S s * Datatypes.S s); [|apply Nat.mul_le_mono; exact L].
  rewrite Nat.mul_succ_l, Nat.mul_succ_r. generalize (s * s). intros a. lia.
Qed.
Lemma fresh17_inj : forall k i k' i', fresh17 k i = fresh17 k' i' -> k = k' /\ i = i'.
Proof.
  unfold fresh17. intros k i k' i' H.
  (* the squares of different sums are further apart than k or k' can make up for *)
  assert (E : k + i = k' + i').
  { pose proof (sq_gap (k + i) (k' + i')) as H1. pose proof (sq_gap (k' + i') (k + i)) as H2.
    revert H H1 H2. generalize ((k + i) * (k + i)) ((k' + i') * (k' + i')). intros a b H H1 H2. lia. }
  rewrite E in H. lia.
Qed.
(* the states of ma are 0 and 1 *)
Lemma ma_states q : In q (map fst (winit ma)) \/ In q (map fst (wfinal ma)) \/
                    (exists ar, In ar (warcs ma) /\ (asrc ar = q \/ adst ar = q)) -> q < 2.
Proof. intros [[<-|[]]|[[<-|[]]|[ar [[<-|[<-|[]]] [<-|<-]]]]]; repeat constructor. Qed.

Example C17_to_bytes_nonvacuous :
  NoDup [0; 1] /\
  (forall ar, In ar (warcs ma) -> exists a, albl ar = Some a /\ In a [0; 1]) /\
  (forall a, In a [0; 1] -> enc17 a <> []) /\
  (forall k i k' i', fresh17 k i = fresh17 k' i' -> k = k' /\ i = i') /\
  (forall k i q, fresh17 k i = q -> ~ (In q (map fst (winit ma)) \/ In q (map fst (wfinal ma)) \/
                                      exists ar, In ar (warcs ma) /\ (asrc ar = q \/ adst ar = q))) /\
  length [200; 129; 65] <= 3 /\
  pathsum (to_bytes enc17 fresh17 ma) [200; 129; 65] = bsum (decodings enc17 [0; 1] 3 [200; 129; 65]) (fun xs => pathsum ma xs) /\
  pathsum (to_bytes enc17 fresh17 ma) [200; 129; 65] = mkq 1 24 /\ pathsum (to_bytes enc17 fresh17 ma) [200; 65] = s0.
Proof.
  refine (conj nodup01 (hyp_then _ (fun H2 => hyp_then _ (fun H3 => conj fresh17_inj (hyp_then _ (fun H5 => conj (le_n 3)
          (conj _ (conj _ _)))))))).
  - (* the arcs of ma are labelled 0 or 1 *) intros ar [<-|[<-|[]]]; eexists; (split; [reflexivity|cbn; tauto]).
  - (* no symbol has the empty encoding *) intros a [<-|[<-|[]]]; discriminate.
  - (* the chain states are no states of ma *) intros k i q E Hq. apply ma_states in Hq. unfold fresh17 in E. lia.
  - (* the theorem; the fuel 3 is the number of bytes *)
    exact (C17.C17_to_bytes QcSR enc17 fresh17 ma [0; 1] [200; 129; 65] 3 nodup01 H2 H3 fresh17_inj H5 (le_n 3)).
  - (* its value *) qc.
  - (* a truncated encoding *) qc.
Qed.

From GV.model Require Import Regex RegexLive.
From GV.props Require C18.

(* the DFA of  (b|c)* a [^a]*  over {a, b, c} = {97, 98, 99}: class 0 = {a}, class 1 = anything else;
   state 2 is a sink that is not live *)
Definition cs18 : list nat := [97; 98; 99].
Definition D18 : dfa :=
  mkD 0 [1] [0; 1]
      [ (0, [(0, 1); (1, 0)]); (1, [(1, 1); (0, 2)]); (2, [(0, 2); (1, 2)]) ]
      [ (0, Explicit [[97]]); (1, AnythingElse) ] [[97]].

Example C18_locally_normalised_nonvacuous :
  fanout cs18 D18 0 [(0, 1); (1, 0)] <> O /\ fanout cs18 D18 0 [(0, 1); (1, 0)] = 3 /\
  re_mass cs18 D18 (0, [(0, 1); (1, 0)]) = 1%Qc.
Proof.
  refine (hyp_then _ (fun H => conj eq_refl _)).
  - vm_compute. discriminate.
  - (* the theorem *) exact (C18.C18_locally_normalised cs18 D18 (0, [(0, 1); (1, 0)]) H).
Qed.

Lemma arc18 : In (0, 98, 0, invK 3) (re_arcs cs18 D18).
Proof. vm_compute. right; left; reflexivity. Qed.
Example C18_arcs_are_dfa_moves_nonvacuous :
  In (0, 98, 0, invK 3) (re_arcs cs18 D18) /\ length (re_arcs cs18 D18) = 5 /\
  exists outs, In (0, outs) (d_map D18) /\ In (98, 0) (moves cs18 D18 outs) /\ invK 3 = invK (fanout cs18 D18 0 outs) /\
               fanout cs18 D18 0 outs <> O /\ memn 0 (d_live D18) = true /\
               exists c, In (c, 0) outs /\ In [98] (expand cs18 D18 c).
Proof.
  exact (conj arc18 (conj eq_refl (C18.C18_arcs_are_dfa_moves cs18 D18 0 98 0 (invK 3) arc18))).
Qed.

Example C18_weights_positive_nonvacuous : 3 <> O /\ (0 < invK 3)%Qc /\ invK 3 = mkq 1 3.
Proof.
  refine (conj (Nat.neq_succ_0 2) (conj (C18.C18_weights_positive 3 (Nat.neq_succ_0 2)) _)). qc.
Qed.

Lemma arc18' : In (0, 97, 1, invK 3) (re_arcs cs18 (with_live cs18 D18)).
Proof. vm_compute. left; reflexivity. Qed.
Example C18_no_dead_ends_nonvacuous :
  In (0, 97, 1, invK 3) (re_arcs cs18 (with_live cs18 D18)) /\ In (1, [(1, 1); (0, 2)]) (d_map D18) /\
  (forall e1 e2, In e1 (d_map D18) -> In e2 (d_map D18) -> fst e1 = fst e2 -> e1 = e2) /\
  live_of cs18 D18 = [1; 0] /\
  fanout cs18 (with_live cs18 D18) 1 [(1, 1); (0, 2)] <> O /\
  re_mass cs18 (with_live cs18 D18) (1, [(1, 1); (0, 2)]) = 1%Qc.
Proof.
  refine (conj arc18' (hyp_then _ (fun H2 => hyp_then _ (fun H3 => conj _ _)))).
  - (* the row of state 1 *) right. left. reflexivity.
  - (* d_map has the keys 0, 1, 2 *) apply keys_functional, nodup_ok. reflexivity.
  - (* the live states *) vm_compute. reflexivity.
  - (* the theorem *) exact (C18.C18_no_dead_ends cs18 D18 0 97 1 (invK 3) [(1, 1); (0, 2)] arc18' H2 H3).
Qed.

From GV.proofs Require SubstProofs.
From GV.props Require C19.

(* a second component, with the nonterminals 5 and 6 *)
Definition Gq2 : grammar QcSR := [ (mkq 1 2, 5, [N 6; T 0]); (mkq 1 3, 6, [T 1]); (mkq 1 4, 6, [N 6; N 6]) ].
Lemma Gq2_nts : nts_above QcSR 5 Gq2.
Proof. exact (nts_above_ok QcSR 5 Gq2 eq_refl). Qed.

Example C19_union_keeps_components_nonvacuous :
  (forall r, In r Gq2 -> forall X, (exists r1, In r1 Gq /\ (rhead r1 = X \/ In (N X) (rbody r1))) -> rhead r <> X) /\
  (forall r, In r Gq -> forall X, (exists r2, In r2 Gq2 /\ (rhead r2 = X \/ In (N X) (rbody r2))) -> rhead r <> X) /\
  (exists r1, In r1 Gq /\ (rhead r1 = 0 \/ In (N 0) (rbody r1))) /\
  (exists r2, In r2 Gq2 /\ (rhead r2 = 5 \/ In (N 5) (rbody r2))) /\
  (forall h xs, W (Gq ++ Gq2) h 0 xs = W Gq h 0 xs) /\ (forall h xs, W (Gq ++ Gq2) h 5 xs = W Gq2 h 5 xs) /\
  W (Gq ++ Gq2) 4 5 [1; 1; 0] = mkq 1 72.
Proof.
  (* the nonterminals of Gq are below 2, those of Gq2 are 5 or more *)
  refine (hyp_then _ (fun H1 => hyp_then _ (fun H2 => hyp_then _ (fun E1 => hyp_then _ (fun E2 => conj _ (conj _ _)))))).
  - (* no head of Gq2 is a nonterminal of Gq *)
    intros r Hr X HX. pose proof (nts_sat_nt QcSR _ Gq X Gq_nts HX) as A. pose proof (proj1 Gq2_nts r Hr) as B.
    cbv beta in A, B. lia.
  - (* and conversely *)
    intros r Hr X HX. pose proof (nts_sat_nt QcSR _ Gq2 X Gq2_nts HX) as A. pose proof (proj1 Gq_nts r Hr) as B.
    cbv beta in A, B. lia.
  - (* 0 is a nonterminal of Gq *) eexists. split; left; reflexivity.
  - (* 5 is one of Gq2 *) eexists. split; left; reflexivity.
  - (* the theorem, for Gq *) intros h xs. exact (proj1 (C19.C19_union_keeps_components QcSR Gq Gq2) H1 h 0 xs E1).
  - (* the theorem, for Gq2 *) intros h xs. exact (proj2 (C19.C19_union_keeps_components QcSR Gq Gq2) H2 h 5 xs E2).
  - (* a value *) qc.
Qed.

Example C19_terminal_grammar_nonvacuous :
  (forall p p', nt17 p = nt17 p' -> p = p') /\ (forall p, nt17 p <> 0) /\
  (forall f xs, W (to_cfg_right 0 nt17 me') (Datatypes.S (Datatypes.S f)) 0 xs = pathsum_e me' f xs) /\
  pathsum_e me' 8 [0; 1] = mkq 11 630.
Proof.
  exact (conj nt17_inj (conj nt17_pos (conj (fun f xs => C19.C19_terminal_grammar QcSR me' 0 nt17 f xs nt17_inj nt17_pos) me_pathsum))).
Qed.

(* token-level grammar over the tokens 0, 1:  S -> tok0 A ;  A -> tok1 | eps.
   components: tok0 matches "7 8"; tok1 matches "9" or "9 9" (start symbols 10 and 11) *)
Definition Gtop : grammar QcSR := [ (mkq 1 2, 0, [T 0; N 1]); (mkq 1 3, 1, [T 1]); (mkq 1 5, 1, []) ].
Definition Gcomp : grammar QcSR :=
  [ (mkq 1 7, 10, [T 7; T 8]); (mkq 1 2, 11, [T 9]); (mkq 1 4, 11, [T 9; N 12]); (mkq 1 1, 12, [T 9]) ].
Definition st19 (t : nat) : nat := t + 10.
Definition ftop : nat -> list nat -> QcSR := W Gtop 3.
Definition gcomp : nat -> list nat -> QcSR := W Gcomp 3.
Lemma ftop_solves : FoldProofs.solves QcSR Gtop ftop.
Proof.
  apply (StableSolves.ranked_solves_bound QcSR (fun X => 2 - X)); [apply rankedb_ok; reflexivity|intros X; lia].
Qed.
Lemma gcomp_solves : FoldProofs.solves QcSR Gcomp gcomp.
Proof.
  apply (StableSolves.ranked_solves_bound QcSR (fun X => if X =? 11 then 1 else 0));
    [apply rankedb_ok; reflexivity|intros X; destruct (X =? 11); lia].
Qed.
Lemma Gtop_nts : nts_below QcSR 2 Gtop.
Proof. exact (nts_below_ok QcSR 2 Gtop eq_refl). Qed.
Lemma Gcomp_nts : nts_above QcSR 10 Gcomp.
Proof. exact (nts_above_ok QcSR 10 Gcomp eq_refl). Qed.

Example C19_substitution_semantics_nonvacuous :
  NoDup [0; 1] /\
  (forall r rc, In r Gtop -> In rc Gcomp -> rhead rc <> rhead r) /\
  (forall r rc Y, In r Gtop -> In (N Y) (rbody r) -> In rc Gcomp -> rhead rc <> Y) /\
  (forall r t, In r Gtop -> In t [0; 1] -> rhead r <> st19 t) /\
  (forall r t, In r Gtop -> In (T t) (rbody r) -> In t [0; 1]) /\
  (forall r rc Y, In r Gtop -> In rc Gcomp -> In (N Y) (rbody rc) -> rhead r <> Y) /\
  FoldProofs.solves QcSR Gcomp gcomp /\ FoldProofs.solves QcSR Gtop ftop /\
  (forall t, In t [0; 1] -> gcomp (st19 t) [] = s0) /\
  FoldProofs.solves QcSR (SubstProofs.assembled QcSR Gtop Gcomp st19) (SubstProofs.Fsub QcSR Gcomp st19 [0; 1] gcomp ftop) /\
  SubstProofs.Fsub QcSR Gcomp st19 [0; 1] gcomp ftop 0 [7; 8; 9; 9]
    = bsum (ProductProofs.words_le [0; 1] (length [7; 8; 9; 9]))
           (fun tau => smul (ftop 0 tau) (SubstProofs.seg QcSR (SubstProofs.Ltok QcSR st19 gcomp) tau [7; 8; 9; 9])) /\
  SubstProofs.Fsub QcSR Gcomp st19 [0; 1] gcomp ftop 0 [7; 8; 9; 9] = mkq 1 168.
Proof.
  (* the nonterminals of Gtop are below 2, those of Gcomp are 10 or more, and so is every st19 t *)
  destruct Gtop_nts as [Th Tb]. destruct Gcomp_nts as [Ch Cb].
  refine (conj nodup01 (hyp_then _ (fun H1 => hyp_then _ (fun H2 => hyp_then _ (fun H3 => hyp_then _ (fun H4 => hyp_then _ (fun H5 =>
          conj gcomp_solves (conj ftop_solves (hyp_then _ (fun H6 => _)))))))))).
  - (* no head of Gcomp is a head of Gtop *) intros r rc A B. specialize (Th r A). specialize (Ch rc B). lia.
  - (* nor in a body of Gtop *) intros r rc Y A HY B. specialize (Tb r Y A HY). specialize (Ch rc B). lia.
  - (* no head of Gtop is a component start *) intros r t A _. specialize (Th r A). unfold st19. lia.
  - (* the terminals of Gtop are tokens *) apply terms_inb_ok. reflexivity.
  - (* no head of Gtop is in a body of Gcomp *) intros r rc Y A B HY. specialize (Th r A). specialize (Cb rc Y B HY). lia.
  - (* no component matches the empty string *) intros t [<-|[<-|[]]]; qc.
  - (* the theorem, at the start symbol 0, then the value *)
    destruct (C19.C19_substitution_semantics QcSR Gtop Gcomp st19 [0; 1] gcomp ftop nodup01 H1 H2 H3 H4 H5 gcomp_solves ftop_solves H6) as [A B].
    refine (conj A (conj (B _ _ _) _)); [eexists; split; [left; reflexivity|reflexivity]|qc].
Qed.

From GV.proofs Require NormProofs.
From GV.props Require C20.

(* a recursive grammar: S -> a S A (1/2) | b (1/3) ; A -> a (1/5) | eps (1/7).
   Total weights: Z[A] = 12/35, Z[S] = (1/3) / (1 - 6/35) = 35/87. *)
Definition G20 : grammar QcFR :=
  [ (mkq 1 2, 0, [T 0; N 0; N 1]); (mkq 1 3, 0, [T 1]); (mkq 1 5, 1, [T 0]); (mkq 1 7, 1, []) ].
Definition Z20 (s : sym) : QcFR :=
  match s with T _ => mkq 1 1 | N 0 => mkq 35 87 | N 1 => mkq 12 35 | N _ => mkq 0 1 end.
Lemma Z20_solves : solves Z20 G20.
Proof. split; [intros a; reflexivity|intros [|[|X]]; qc]. Qed.
Lemma Z20_nonzero X : X < 2 -> Z20 (N X) <> s0.
Proof. destruct X as [|[|X]]; [vm_compute; discriminate ..|lia]. Qed.

Example C20_heads_sum_to_one_nonvacuous :
  solves Z20 G20 /\ Z20 (N 0) <> s0 /\ head_mass (lnorm (norm_factor QcFR) Z20 G20) 0 = s1 /\
  map (fun r : rule QcFR => this (rw r)) (lnorm (norm_factor QcFR) Z20 G20) = [(6 # 35)%Q; (29 # 35)%Q; (7 # 12)%Q; (5 # 12)%Q].
Proof.
  pose proof (Z20_nonzero 0 (Nat.lt_0_succ 1)) as H.
  refine (conj Z20_solves (conj H (conj (C20.C20_heads_sum_to_one QcFR Z20 G20 0 Z20_solves H) _))).
  (* the normalised weights *) vm_compute. reflexivity.
Qed.

(* the derivation tree of "a b a": S -> a S A, S -> b, A -> a *)
Definition t20 : tree QcFR :=
  Node 0 ((mkq 1 2, 0, [T 0; N 0; N 1]) : rule QcFR)
    (Fcons (Leaf 0) (Fcons (Node 1 ((mkq 1 3, 0, [T 1]) : rule QcFR) (Fcons (Leaf 1) Fnil))
    (Fcons (Node 2 ((mkq 1 5, 1, [T 0]) : rule QcFR) (Fcons (Leaf 0) Fnil)) Fnil))).
Lemma t20_wf : twf QcFR G20 (N 0) t20.
Proof. unfold t20. twf_tac. Qed.
Example C20_tree_proportional_nonvacuous :
  (forall a, Z20 (T a) = s1) /\ twf QcFR G20 (N 0) t20 /\
  (forall X, NormProofs.occurs_nt QcFR X t20 -> Z20 (N X) <> s0) /\
  smul (tweight (NormProofs.tmap QcFR Z20 t20)) (Z20 (N 0)) = tweight t20 /\
  tweight t20 = mkq 1 30 /\ tweight (NormProofs.tmap QcFR Z20 t20) = mkq 29 350 /\
  (let r : rule QcFR := (mkq 1 2, 0, [T 0; N 0; N 1]) in
   In r G20 /\ Z20 (N (rhead r)) <> s0 /\
   In (norm_factor QcFR (rw r) (prodZ Z20 (rbody r)) (Z20 (N (rhead r))), rhead r, rbody r) (lnorm (norm_factor QcFR) Z20 G20)).
Proof.
  refine (hyp_then _ (fun H1 => conj t20_wf (hyp_then _ (fun H2 => conj _ (conj _ (conj _ _)))))).
  - reflexivity.
  - (* the rules of t20 have the heads 0 and 1 *) intros X H. apply Z20_nonzero. cbn in H. intuition lia.
  - (* the theorem, first part *) exact (proj1 (C20.C20_tree_proportional QcFR Z20 G20 H1) t20 (N 0) t20_wf H2).
  - qc.
  - qc.
  - (* the theorem, second part, for the first rule *) intros r.
    refine (hyp_then _ (fun Hr => hyp_then _ (fun Hz => proj1 (proj2 (C20.C20_tree_proportional QcFR Z20 G20 H1)) r Hr Hz))).
    + left. reflexivity.
    + apply Z20_nonzero. cbn. lia.
Qed.

(* add_EOS on the weighted right-recursive grammar Gr *)
Example C20_add_eos_nonvacuous :
  (forall r, In r Gr -> rhead r <> 9) /\ (forall r, In r Gr -> ~ In (N 9) (rbody r)) /\
  (forall h xs, W (add_eos 9 0 7 Gr) (Datatypes.S h) 9 (xs ++ [7]) = W Gr h 0 xs) /\
  W (add_eos 9 0 7 Gr) 4 9 ([0; 0; 1] ++ [7]) = 12%N.
Proof.
  refine (conj Gr_head9 (conj Gr_body9 (conj (fun h xs => C20.C20_add_eos NSR Gr 9 0 7 h xs Gr_head9 Gr_body9) _))).
  vm_compute. reflexivity.
Qed.

Example C20_add_eos_shape_nonvacuous :
  (forall r, In r Gr -> rhead r <> 9) /\ (forall r, In r Gr -> ~ In (N 9) (rbody r)) /\
  (forall h ys, W (add_eos 9 0 7 Gr) (Datatypes.S h) 9 ys
     = bsum (splits ys) (fun p => smul (W Gr h 0 (fst p)) (match snd p with [e] => if Nat.eqb 7 e then s1 else s0 | _ => s0 end))) /\
  W (add_eos 9 0 7 Gr) 4 9 [0; 1; 7; 7] = 0%N /\ W (add_eos 9 0 7 Gr) 4 9 [0; 1] = 0%N.
Proof.
  refine (conj Gr_head9 (conj Gr_body9 (conj (fun h ys => C20.C20_add_eos_shape NSR Gr 9 0 7 h ys Gr_head9 Gr_body9) (conj _ _))));
    vm_compute; reflexivity.
Qed.

Print Assumptions fq_solves.
Print Assumptions C01_prefix_transducer_nonvacuous.
Print Assumptions C01_executable_mask_nonvacuous.
Print Assumptions C01_eos_iff_complete_nonvacuous.
Print Assumptions C02_executable_model_is_reference_nonvacuous.
Print Assumptions C02_perm_rename_invariant_nonvacuous.
Print Assumptions C03_executable_prefix_model_nonvacuous.
Print Assumptions C03_derivative_nonvacuous.
Print Assumptions C03_derivative_twice_nonvacuous.
Print Assumptions half_half.
Print Assumptions C04_sums_to_one_nonvacuous.
Print Assumptions C04_chain_rule_nonvacuous.
Print Assumptions C06_rename_preserves_nonvacuous.
Print Assumptions C06_separate_start_preserves_nonvacuous.
Print Assumptions C06_unfold_one_step_nonvacuous.
Print Assumptions C06_unfold_preserves_solutions_nonvacuous.
Print Assumptions tq_wf.
Print Assumptions C06_unfold_trees_nonvacuous.
Print Assumptions C06_unfold_sums_nonvacuous.
Print Assumptions C06_separate_terminals_trees_nonvacuous.
Print Assumptions f3_solves.
Print Assumptions t3_wf.
Print Assumptions G3_below.
Print Assumptions C06_binarize_trees_nonvacuous.
Print Assumptions C06_binarize_solutions_nonvacuous.
Print Assumptions C06_separate_terminals_solutions_nonvacuous.
Print Assumptions C06_nullaryremove_solutions_nonvacuous.
Print Assumptions C06_unaryremove_solutions_nonvacuous.
Print Assumptions C05_history_independent_nonvacuous.
Print Assumptions C07_cnf_pipeline_nonvacuous.
Print Assumptions C07_useful_empty_language_nonvacuous.
Print Assumptions C07_transform_shapes_nonvacuous.
Print Assumptions reach1.
Print Assumptions reach2.
Print Assumptions reach3.
Print Assumptions C08_agenda_invariant_nonvacuous.
Print Assumptions C08_agenda_fixpoint_nonvacuous.
Print Assumptions C08_expectation_tree_nonvacuous.
Print Assumptions C09_prefix_transducer_nonvacuous.
Print Assumptions C10_filter_unique_nonvacuous.
Print Assumptions C10_filter_block_weight_nonvacuous.
Print Assumptions C10_filter_real_symbol_nonvacuous.
Print Assumptions C10_product_is_relational_composition_nonvacuous.
Print Assumptions C11_call_is_path_sum_nonvacuous.
Print Assumptions C11_closure_fixpoint_nonvacuous.
Print Assumptions ma_eps_free.
Print Assumptions mb_eps_free.
Print Assumptions C12_rename_injective_nonvacuous.
Print Assumptions C12_concat_nonvacuous.
Print Assumptions C12_plus_nonvacuous.
Print Assumptions C12_one_zero_lift_nonvacuous.
Print Assumptions V13_backward.
Print Assumptions m13_dead.
Print Assumptions C13_push_stochastic_nonvacuous.
Print Assumptions C13_push_language_nonvacuous.
Print Assumptions C13_determinize_invariant_nonvacuous.
Print Assumptions C13_trim_accessible_nonvacuous.
Print Assumptions C13_trim_dead_nonvacuous.
Print Assumptions C13_trim_language_nonvacuous.
Print Assumptions C14_counterexample_sound_nonvacuous.
Print Assumptions C14_none_means_equivalent_nonvacuous.
Print Assumptions C14_rational_instance_nonvacuous.
Print Assumptions C15_lehmann_fixpoint_nonvacuous.
Print Assumptions C15_closure_fixpoint_nonvacuous.
Print Assumptions nodup3.
Print Assumptions C15_acyclic_is_power_sum_nonvacuous.
Print Assumptions C15_bool_reachability_nonvacuous.
Print Assumptions Ab_outside.
Print Assumptions C15_block_solvers_nonvacuous.
Print Assumptions C15_scc_checker_sound_nonvacuous.
Print Assumptions C17_to_cfg_right_nonvacuous.
Print Assumptions C17_to_cfg_left_nonvacuous.
Print Assumptions fresh17_inj.
Print Assumptions C17_to_bytes_nonvacuous.
Print Assumptions C18_locally_normalised_nonvacuous.
Print Assumptions arc18.
Print Assumptions C18_arcs_are_dfa_moves_nonvacuous.
Print Assumptions C18_weights_positive_nonvacuous.
Print Assumptions arc18'.
Print Assumptions C18_no_dead_ends_nonvacuous.
Print Assumptions C19_union_keeps_components_nonvacuous.
Print Assumptions C19_terminal_grammar_nonvacuous.
Print Assumptions ftop_solves.
Print Assumptions gcomp_solves.
Print Assumptions C19_substitution_semantics_nonvacuous.
Print Assumptions Z20_solves.
Print Assumptions C20_heads_sum_to_one_nonvacuous.
Print Assumptions t20_wf.
Print Assumptions C20_tree_proportional_nonvacuous.
Print Assumptions C20_add_eos_nonvacuous.
Print Assumptions C20_add_eos_shape_nonvacuous.
