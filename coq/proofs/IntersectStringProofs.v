(* Composing a grammar with a plain string (CFG @ string, i.e. intersection with the
   automaton of one string) is the pointwise product: the product grammar gives y the
   weight  G(x)  when  y = x  and  0  otherwise.  The letter-to-letter transducer of x is the
   diagonal of the automaton WFSA.from_string x 1, so it relates a string to itself when the
   string is x and to nothing else; summing G against that relation leaves the one term G(x),
   and the Bar-Hillel product theorem (BarHillelProofs) applies to this machine. *)
From Coq Require Import List Arith Bool Lia NArith.
From GV.lib Require Import Semiring BigSum.
From GV.model Require Import Cfg Wfsa Fst BarHillel.
From GV.proofs Require Import CfgTrees FoldProofs ProductProofs TotalStringsProofs
     StarStringProofs FstOpsProofs BarHillelProofs.
Import ListNotations.
Local Open Scope sr_scope.

(* the arcs  i -x_i:x_i-> i+1  of weight one; initial state 0, final state |x| *)
Definition string_arcs (S : SR) (x : list nat) : list (larc S) :=
  map (fun ia => (fst ia, snd ia, snd ia, Datatypes.S (fst ia), 1)) (combine (seq 0 (length x)) x).

Section IntersectString.
Variable S : SR.
Add Ring SRingIS : (sth S).

Lemma lift_string_is_diag (x : list nat) :
  lift_fst S [(0%nat, 1)] [(length x, 1)] (string_arcs S x) = diag (from_string x 1).
Proof.
  unfold lift_fst, diag, from_string, string_arcs. cbn [winit wfinal warcs].
  rewrite !map_map. reflexivity.
Qed.

Theorem string_relation : forall (x : list nat) (fuel : nat) (xs ys : list nat),
  length xs <= fuel ->
  trel (lift_fst S [(0%nat, 1)] [(length x, 1)] (string_arcs S x)) fuel xs ys
  = if list_eqb Nat.eqb xs ys && list_eqb Nat.eqb xs x then 1 else 0.
Proof. intros x fuel xs ys Hl. rewrite lift_string_is_diag. apply diag_string_relation, Hl. Qed.

Theorem intersect_string_value : forall (V : list nat) (f : nat -> list nat -> S) (start : nat)
    (x ys : list nat) (fuel : nat),
  NoDup V -> (forall a, In a x -> In a V) -> length ys <= fuel ->
  bsum (words_eq V (length ys))
       (fun xs => f start xs * trel (lift_fst S [(0%nat, 1)] [(length x, 1)] (string_arcs S x)) fuel xs ys)
  = if list_eqb Nat.eqb ys x then f start x else 0.
Proof.
  intros V f start x ys fuel HV Hx Hl.
  destruct (list_eqb Nat.eqb ys x) eqn:E.
  - (* ys = x: the only word related to x is x *)
    apply list_eqb_nat_spec in E. subst ys.
    rewrite (BigSum.bsum_single S _ x _ (words_eq_NoDup V HV _) (words_eq_complete V x Hx)).
    + rewrite string_relation, list_eqb_nat_refl by exact Hl. apply smul_1_r.
    + intros xs Hxs Hne. apply words_eq_length in Hxs. rewrite string_relation by lia.
      destruct (list_eqb Nat.eqb xs x) eqn:E2; [apply list_eqb_nat_spec in E2; contradiction|].
      rewrite andb_false_r. apply smul_0_r.
  - apply bsum_zero; intros xs Hxs. apply words_eq_length in Hxs. rewrite string_relation by lia.
    destruct (list_eqb Nat.eqb xs ys) eqn:E1; [|apply smul_0_r].
    apply list_eqb_nat_spec in E1. subst xs. rewrite E. apply smul_0_r.
Qed.

(* the machine of a string satisfies the hypotheses of the product theorem *)

Lemma string_arcs_ok (V x : list nat) : (forall a, In a x -> In a V) ->
  forall ar, In ar (string_arcs S x) ->
    In (asrc ar) (seq 0 (Datatypes.S (length x))) /\ In (adst ar) (seq 0 (Datatypes.S (length x))) /\ In (ain ar) V.
Proof.
  intros Hx ar Har. unfold string_arcs in Har. apply in_map_iff in Har.
  destruct Har as [[i c] [<- Hic]]. cbn [asrc adst ain fst snd].
  pose proof (in_combine_l _ _ _ _ Hic) as Hi. pose proof (in_combine_r _ _ _ _ Hic) as Hc.
  apply in_seq in Hi. repeat split.
  - apply in_seq. lia.
  - apply in_seq. lia.
  - apply Hx. exact Hc.
Qed.

Theorem intersect_string_grammar : forall (nt tm : nat -> nat -> nat -> nat) (s' : nat)
    (G : grammar S) (start : nat) (V : list nat) (f : nat -> list nat -> S) (x : list nat),
  (forall p X q p' X' q', nt p X q = nt p' X' q' -> p = p' /\ X = X' /\ q = q') ->
  (forall p a q p' a' q', tm p a q = tm p' a' q' -> p = p' /\ a = a' /\ q = q') ->
  (forall p X q p' a q', nt p X q <> tm p' a q') ->
  (forall p X q, nt p X q <> s') -> (forall p a q, tm p a q <> s') ->
  NoDup V ->
  (forall a, In a x -> In a V) ->
  (forall r a, In r G -> In (T a) (rbody r) -> In a V) ->
  solves S G f ->
  solves S (bar_hillel nt tm s' (seq 0 (Datatypes.S (length x))) [(0%nat, 1)] [(length x, 1)] (string_arcs S x) G start)
           (Fv S nt tm s' (seq 0 (Datatypes.S (length x))) [(0%nat, 1)] [(length x, 1)] (string_arcs S x) G start V f) /\
  (forall ys,
     Fv S nt tm s' (seq 0 (Datatypes.S (length x))) [(0%nat, 1)] [(length x, 1)] (string_arcs S x) G start V f s' ys
     = if list_eqb Nat.eqb ys x then f start x else 0).
Proof.
  intros nt tm s' G start V f x H1 H2 H3 H4 H5 HV Hx HGV Hf. split.
  - apply (bar_hillel_solves S nt tm s' (seq 0 (Datatypes.S (length x))) [(0%nat, 1)] [(length x, 1)]
             (string_arcs S x) G start V f H1 H2 H3 H4 H5 (seq_NoDup _ 0) HV (string_arcs_ok V x Hx)).
    + intros i [<-|[]]. cbn [fst]. apply in_seq. lia.
    + intros k [<-|[]]. cbn [fst]. apply in_seq. lia.
    + exact HGV.
    + exact Hf.
  - intros ys.
    rewrite (bar_hillel_start_trel S nt tm s' (seq 0 (Datatypes.S (length x))) [(0%nat, 1)] [(length x, 1)]
               (string_arcs S x) G start V f ys (length ys) (le_n _)).
    apply intersect_string_value; [exact HV|exact Hx|apply le_n].
Qed.

End IntersectString.

Print Assumptions lift_string_is_diag.
Print Assumptions string_relation.
Print Assumptions intersect_string_value.
Print Assumptions intersect_string_grammar.

Example string_relation_nonvacuous :
  trel (lift_fst NSR [(0%nat, 1%N)] [(2%nat, 1%N)] (string_arcs NSR [7; 8]%nat)) 3 [7; 8]%nat [7; 8]%nat = 1%N /\
  trel (lift_fst NSR [(0%nat, 1%N)] [(2%nat, 1%N)] (string_arcs NSR [7; 8]%nat)) 3 [7; 8]%nat [7]%nat = 0%N /\
  trel (lift_fst NSR [(0%nat, 1%N)] [(2%nat, 1%N)] (string_arcs NSR [7; 8]%nat)) 3 [7]%nat [7]%nat = 0%N.
Proof. vm_compute. repeat split; reflexivity. Qed.
Print Assumptions string_relation_nonvacuous.
