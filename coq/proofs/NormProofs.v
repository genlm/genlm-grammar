(* Local normalisation (cfglm.locally_normalize), EOS wrapping (cfglm.add_EOS) and
   the chain rule of language models (lm.LM): proofs about model/Norm.v with the
   regenerated expression Gen_Exprs.norm_factor plugged in. *)
From Coq Require Import List Arith Field.
From GV.lib Require Import Semiring BigSum.
From GV.model Require Import Cfg Norm.
From GV.gen Require Import Gen_Exprs.
From GV.proofs Require Import CfgTrees.
Import ListNotations.
Local Open Scope sr_scope.

Section LocalNorm.
Variable F : FR.
Add Field NPFieldA : (fth F).

Lemma seqb_true_eq (a b : F) : seqb a b = true -> a = b.
Proof. apply seqb_spec. Qed.

(* the rule of the normalised grammar that corresponds to r *)
Definition nrule (Z : sym -> F) (r : rule F) : rule F :=
  (norm_factor F (rw r) (prodZ Z (rbody r)) (Z (N (rhead r))), rhead r, rbody r).

Lemma lnorm_eq (Z : sym -> F) (G : grammar F) :
  lnorm (norm_factor F) Z G
  = map (nrule Z) (filter (fun r => negb (seqb (Z (N (rhead r))) 0)) G).
Proof.
  unfold lnorm. induction G as [|r G IH]; [reflexivity|]. cbn [flat_map filter].
  destruct (seqb (Z (N (rhead r))) 0); cbn [negb map app]; rewrite IH; reflexivity.
Qed.

(* the factor of a rule cancels the total of its head: the one place where division is undone *)
Lemma norm_factor_cancel (w p z x : F) : z <> 0 -> norm_factor F w p z * x * z = w * (x * p).
Proof. intros Hz. unfold norm_factor. field. exact Hz. Qed.

(* one step: a sum over the rules of the normalised grammar, times Z X, against the same
   sum over the original rules; [b'] and [b] are the body values *)
Lemma lnorm_step (Z : sym -> F) (G : grammar F) (X : nat) (b' b : list sym -> F) :
  Z (N X) <> 0 ->
  (forall body, b' body * prodZ Z body = b body) ->
  bsum (lnorm (norm_factor F) Z G)
       (fun r => if Nat.eqb (rhead r) X then rw r * b' (rbody r) else 0) * Z (N X)
  = bsum G (fun r => if Nat.eqb (rhead r) X then rw r * b (rbody r) else 0).
Proof.
  intros HX Hb. rewrite lnorm_eq, bsum_map, bsum_filter, <- bsum_mul_r.
  apply bsum_ext. intros r _. unfold nrule. cbn [rhead rw rbody fst snd].
  destruct (Nat.eqb_spec (rhead r) X) as [->|_].
  - rewrite (seqb_false_neq _ _ _ HX), <- (Hb (rbody r)). cbn [negb]. apply norm_factor_cancel, HX.
  - destruct (negb (seqb (Z (N (rhead r))) 0)); apply smul_0_l.
Qed.

Theorem lnorm_heads_sum_to_one : forall (Z : sym -> F) (G : grammar F) (X : nat),
  solves Z G -> Z (N X) <> 0 -> head_mass (lnorm (norm_factor F) Z G) X = 1.
Proof.
  intros Z G X [HT HN] HX.
  assert (H : head_mass (lnorm (norm_factor F) Z G) X * Z (N X) = Z (N X)).
  { etransitivity; [|symmetry; apply HN].
    rewrite <- (lnorm_step Z G X (fun _ => 1) (prodZ Z) HX) by (intros; apply smul_1_l).
    unfold head_mass. f_equal. apply bsum_ext. intros r _. rewrite smul_1_r. reflexivity. }
  transitivity (fdiv F (head_mass (lnorm (norm_factor F) Z G) X * Z (N X)) (Z (N X)));
    [|rewrite H]; field; exact HX.
Qed.

(* tmap only reweights: the nodes keep their rule indices in G.  lnorm drops the rules whose
   head has total 0, so these are not indices into lnorm G and tmap Z t need not be
   well-formed there; the two grammars are related at the level of strings in
   LnormStringsProofs.v *)
Fixpoint tmap (Z : sym -> F) (t : tree F) : tree F :=
  match t with
  | Leaf a => Leaf a
  | Node i r k => Node i (nrule Z r) (fmap Z k)
  end
with fmap (Z : sym -> F) (f : forest F) : forest F :=
  match f with
  | Fnil => Fnil
  | Fcons t f' => Fcons (tmap Z t) (fmap Z f')
  end.

Fixpoint occurs_nt (X : nat) (t : tree F) : Prop :=
  match t with
  | Leaf _ => False
  | Node _ r k => rhead r = X \/ occurs_ntf X k
  end
with occurs_ntf (X : nat) (f : forest F) : Prop :=
  match f with
  | Fnil => False
  | Fcons t f' => occurs_nt X t \/ occurs_ntf X f'
  end.

Lemma tmap_leaf Z a : tmap Z (Leaf a) = Leaf a. Proof. reflexivity. Qed.
Lemma tmap_node Z i r k : tmap Z (Node i r k) = Node i (nrule Z r) (fmap Z k). Proof. reflexivity. Qed.
Lemma fmap_nil Z : fmap Z Fnil = Fnil. Proof. reflexivity. Qed.
Lemma fmap_cons Z t f : fmap Z (Fcons t f) = Fcons (tmap Z t) (fmap Z f). Proof. reflexivity. Qed.
Lemma occurs_nt_node X i (r : rule F) k : occurs_nt X (Node i r k) = (rhead r = X \/ occurs_ntf X k).
Proof. reflexivity. Qed.
Lemma occurs_ntf_cons X (t : tree F) f : occurs_ntf X (Fcons t f) = (occurs_nt X t \/ occurs_ntf X f).
Proof. reflexivity. Qed.
Lemma prodZ_nil (Z : sym -> F) : prodZ Z [] = 1. Proof. reflexivity. Qed.
Lemma prodZ_cons (Z : sym -> F) s body : prodZ Z (s :: body) = Z s * prodZ Z body. Proof. reflexivity. Qed.

Lemma lnorm_tree_mut (Z : sym -> F) (G : grammar F) :
  (forall a, Z (T a) = 1) ->
  (forall s t, twf F G s t -> (forall X, occurs_nt X t -> Z (N X) <> 0) ->
     tweight (tmap Z t) * Z s = tweight t) /\
  (forall body f, fwf F G body f -> (forall X, occurs_ntf X f -> Z (N X) <> 0) ->
     fweight (fmap Z f) * prodZ Z body = fweight f).
Proof.
  intros HT. apply twf_fwf_ind.
  - intros a _. rewrite tmap_leaf, tweight_leaf, HT. apply smul_1_l.
  - intros i r kids Hnth Hfwf IHk Hocc.
    rewrite tmap_node, !tweight_node.
    assert (Hh : Z (N (rhead r)) <> 0).
    { apply Hocc. rewrite occurs_nt_node. left; reflexivity. }
    rewrite <- IHk.
    + unfold nrule. change (rw (?w, ?h, ?b)) with w. apply norm_factor_cancel, Hh.
    + intros X HX. apply Hocc. rewrite occurs_nt_node. right; exact HX.
  - intros _. rewrite fmap_nil, fweight_nil, prodZ_nil. apply smul_1_l.
  - intros s body t f Htwf IHt Hfwf IHf Hocc.
    rewrite fmap_cons, !fweight_cons, prodZ_cons.
    rewrite <- IHt, <- IHf.
    + ring.
    + intros X HX. apply Hocc. rewrite occurs_ntf_cons. right; exact HX.
    + intros X HX. apply Hocc. rewrite occurs_ntf_cons. left; exact HX.
Qed.

Theorem lnorm_tree_proportional : forall (Z : sym -> F) (G : grammar F),
  (forall a, Z (T a) = 1) ->
  forall t s, twf F G s t -> (forall X, occurs_nt X t -> Z (N X) <> 0) ->
    tweight (tmap Z t) * Z s = tweight t.
Proof.
  intros Z G HT t s Hwf Hocc. exact (proj1 (lnorm_tree_mut Z G HT) s t Hwf Hocc).
Qed.

Theorem lnorm_forest_proportional : forall (Z : sym -> F) (G : grammar F),
  (forall a, Z (T a) = 1) ->
  forall f body, fwf F G body f -> (forall X, occurs_ntf X f -> Z (N X) <> 0) ->
    fweight (fmap Z f) * prodZ Z body = fweight f.
Proof.
  intros Z G HT f body Hwf Hocc. exact (proj2 (lnorm_tree_mut Z G HT) body f Hwf Hocc).
Qed.

Theorem lnorm_rule_in : forall (Z : sym -> F) (G : grammar F) (r : rule F),
  In r G -> Z (N (rhead r)) <> 0 ->
  In (norm_factor F (rw r) (prodZ Z (rbody r)) (Z (N (rhead r))), rhead r, rbody r)
     (lnorm (norm_factor F) Z G).
Proof.
  intros Z G r Hin Hne. rewrite lnorm_eq. apply (in_map (nrule Z)), filter_In.
  split; [exact Hin|]. rewrite (seqb_false_neq _ _ _ Hne). reflexivity.
Qed.

Theorem lnorm_rule_from : forall (Z : sym -> F) (G : grammar F) (r' : rule F),
  In r' (lnorm (norm_factor F) Z G) ->
  exists r, In r G /\ Z (N (rhead r)) <> 0 /\
    r' = (norm_factor F (rw r) (prodZ Z (rbody r)) (Z (N (rhead r))), rhead r, rbody r).
Proof.
  intros Z G r' Hin. rewrite lnorm_eq in Hin. apply in_map_iff in Hin.
  destruct Hin as [r [E Hr]]. apply filter_In in Hr. destruct Hr as [Hr Hz].
  exists r. split; [exact Hr|]. split; [|symmetry; exact E].
  destruct (seqb_reflect F (Z (N (rhead r))) 0) as [_|Hne]; [discriminate|exact Hne].
Qed.

End LocalNorm.

Print Assumptions lnorm_heads_sum_to_one.
Print Assumptions lnorm_tree_proportional.
Print Assumptions lnorm_rule_in.
Print Assumptions lnorm_rule_from.

Section Eos.
Variable S : SR.
Add Ring NPRingB : (sth S).

Theorem add_eos_W_old : forall (G : grammar S) (s' s eos : nat),
  (forall r, In r G -> rhead r <> s') ->
  (forall r, In r G -> ~ In (N s') (rbody r)) ->
  forall h X ys, X <> s' -> W (add_eos s' s eos G) h X ys = W G h X ys.
Proof. intros G s' s eos _ Hbodies. exact (W_cons_other S G (1, s', [N s; T eos]) Hbodies). Qed.

Lemma W_no_head (G : grammar S) (X : nat) :
  (forall r, In r G -> rhead r <> X) -> forall h ys, W G h X ys = 0.
Proof. intros Hheads [|h] ys; [reflexivity|]. rewrite W_S. apply bsum_head_zero, Hheads. Qed.

Lemma W_add_eos_S (G : grammar S) (s' s eos : nat) :
  (forall r, In r G -> rhead r <> s') ->
  forall h ys, W (add_eos s' s eos G) (Datatypes.S h) s' ys =
    bsum (splits ys) (fun p => W (add_eos s' s eos G) h s (fst p)
                               * Wb (W (add_eos s' s eos G) h) [T eos] (snd p)).
Proof.
  intros Hheads h ys. rewrite W_S. unfold add_eos at 1. rewrite bsum_cons, (bsum_head_zero S G s' _ Hheads).
  cbn [rhead rw rbody fst snd]. rewrite Nat.eqb_refl, Wb_N_unfold, smul_1_l. apply sadd_0_r.
Qed.

(* degenerate case s = s': the new rule s' -> s' eos derives nothing *)
Lemma W_add_eos_self (G : grammar S) (s' eos : nat) :
  (forall r, In r G -> rhead r <> s') ->
  forall h ys, W (add_eos s' s' eos G) h s' ys = 0.
Proof.
  intros Hheads. induction h as [|h IH]; intros ys; [reflexivity|].
  rewrite (W_add_eos_S G s' s' eos Hheads). apply bsum_zero. intros p _.
  rewrite IH. apply smul_0_l.
Qed.

Theorem add_eos_W_new : forall (G : grammar S) (s' s eos : nat),
  (forall r, In r G -> rhead r <> s') ->
  (forall r, In r G -> ~ In (N s') (rbody r)) ->
  forall h ys,
    W (add_eos s' s eos G) (Datatypes.S h) s' ys =
    bsum (splits ys) (fun p => W G h s (fst p) *
       (match snd p with [e] => if Nat.eqb eos e then 1 else 0 | _ => 0 end)).
Proof.
  intros G s' s eos Hheads Hbodies h ys.
  rewrite (W_add_eos_S G s' s eos Hheads).
  apply bsum_ext. intros p _. rewrite Wb_T1. f_equal.
  destruct (Nat.eq_dec s s') as [E|NE].
  - subst s. rewrite (W_add_eos_self G s' eos Hheads), (W_no_head G s' Hheads). reflexivity.
  - apply add_eos_W_old; assumption.
Qed.

Theorem add_eos_W : forall (G : grammar S) (s' s eos : nat) (h : nat) (xs : list nat),
  (forall r, In r G -> rhead r <> s') ->
  (forall r, In r G -> ~ In (N s') (rbody r)) ->
  W (add_eos s' s eos G) (Datatypes.S h) s' (xs ++ [eos]) = W G h s xs.
Proof.
  intros G s' s eos h xs Hheads Hbodies.
  rewrite (add_eos_W_new G s' s eos Hheads Hbodies).
  (* only the split (xs, [eos]) survives *)
  rewrite (bsum_splits_snd S (W G h s)
             (fun l => match l with [e] => if Nat.eqb eos e then 1 else 0 | _ => 0 end)).
  - rewrite Nat.eqb_refl. apply smul_1_r.
  - intros [|e [|e' w]] Hw; try reflexivity.
    destruct (Nat.eqb_spec eos e) as [->|_]; [contradiction|reflexivity].
Qed.

End Eos.

Print Assumptions add_eos_W_old.
Print Assumptions add_eos_W_new.
Print Assumptions add_eos_W.

(* a hypothesis on every prefix of the string, read at the empty prefix and passed to the tail *)
Lemma prefixes_hyp_nil {A} (P : list A -> Prop) (ctx xs : list A) :
  (forall k, k <= length xs -> P (ctx ++ firstn k xs)) -> P ctx.
Proof. intros H. specialize (H O (Nat.le_0_l _)). cbn [firstn] in H. rewrite app_nil_r in H. exact H. Qed.

Lemma prefixes_hyp_cons {A} (P : list A -> Prop) (ctx : list A) (x : A) (t : list A) :
  (forall k, k <= length (x :: t) -> P (ctx ++ firstn k (x :: t))) ->
  forall k, k <= length t -> P ((ctx ++ [x]) ++ firstn k t).
Proof. intros H k Hk. rewrite <- app_assoc. exact (H (Datatypes.S k) (le_n_S _ _ Hk)). Qed.

Section ChainRule.
Variable F : FR.
Add Field NPFieldC : (fth F).

Theorem p_next_sums_to_one : forall (V : list nat) (eos : nat) (nw : list nat -> nat -> F) (ctx : list nat),
  zsum V eos nw ctx <> 0 -> bsum (V ++ [eos]) (p_next V eos nw ctx) = 1.
Proof.
  intros V eos nw ctx Hz. unfold p_next.
  rewrite (bsum_fdiv F (V ++ [eos]) (nw ctx) (zsum V eos nw ctx) Hz).
  fold (zsum V eos nw ctx). field. exact Hz.
Qed.

Lemma zsum_prefix (V : list nat) (eos : nat) (nw : list nat -> nat -> F) (pw cw : list nat -> F) :
  (forall ctx t, In t V -> nw ctx t = pw (ctx ++ [t])) ->
  (forall ctx, nw ctx eos = cw ctx) ->
  (forall ctx, pw ctx = cw ctx + bsum V (fun t => pw (ctx ++ [t]))) ->
  forall ctx, zsum V eos nw ctx = pw ctx.
Proof.
  intros Hnw Heos Hpw ctx. unfold zsum.
  rewrite bsum_app, bsum_cons, bsum_nil, Heos, (Hpw ctx).
  rewrite (bsum_ext F V (nw ctx) _ (Hnw ctx)). ring.
Qed.

Theorem chain_rule : forall (V : list nat) (eos : nat) (nw : list nat -> nat -> F) (pw cw : list nat -> F),
  (forall ctx t, In t V -> nw ctx t = pw (ctx ++ [t])) ->
  (forall ctx, nw ctx eos = cw ctx) ->
  (forall ctx, pw ctx = cw ctx + bsum V (fun t => pw (ctx ++ [t]))) ->
  ~ In eos V ->
  forall xs ctx, (forall x, In x xs -> In x V) ->
    (forall k, k <= length xs -> pw (ctx ++ firstn k xs) <> 0) ->
    chain V eos nw ctx xs = fdiv F (cw (ctx ++ xs)) (pw ctx).
Proof.
  intros V eos nw pw cw Hnw Heos Hpw Hnotin.
  pose proof (zsum_prefix V eos nw pw cw Hnw Heos Hpw) as Hz.
  (* telescoping: the factor for x is pw (ctx ++ [x]) / pw ctx and the last one is
     cw (ctx ++ xs) / pw (ctx ++ xs); each denominator cancels the numerator before it, which
     needs every prefix weight to be non-zero *)
  induction xs as [|x t IH]; intros ctx HV Hne.
  - cbn [chain]. unfold p_next. rewrite Hz, Heos, app_nil_r. reflexivity.
  - cbn [chain]. unfold p_next. rewrite Hz.
    pose proof (prefixes_hyp_cons (fun l => pw l <> 0) ctx x t Hne) as Hne'.
    pose proof (prefixes_hyp_nil (fun l => pw l <> 0) ctx _ Hne) as H0.
    pose proof (prefixes_hyp_nil (fun l => pw l <> 0) (ctx ++ [x]) _ Hne') as H1.
    rewrite (Hnw ctx x) by (apply HV; left; reflexivity).
    rewrite (IH (ctx ++ [x]) (fun y Hy => HV y (or_intror Hy)) Hne').
    rewrite <- app_assoc. cbn [app]. field. split; assumption.
Qed.

Theorem chain_zero_context : forall (V : list nat) (eos : nat) (nw : list nat -> nat -> F) (ctx : list nat) (t : nat),
  zsum V eos nw ctx = 0 -> (forall u, In u (V ++ [eos]) -> nw ctx u = 0) ->
  p_next V eos nw ctx t = fdiv F (nw ctx t) 0.
Proof.
  intros V eos nw ctx t Hz _. unfold p_next. rewrite Hz. reflexivity.
Qed.

End ChainRule.

Print Assumptions p_next_sums_to_one.
Print Assumptions chain_rule.
Print Assumptions chain_zero_context.
