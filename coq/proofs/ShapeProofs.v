(* Structural postconditions of the name-inventing grammar transformations of
   model/Transform2.v (binarize, separate_terminals, push_null_weights, unaryremove) and of
   separate_start, for EVERY input grammar, and the shape of the Chomsky-normal-form
   pipeline
     cnf = separate_terminals -> binarize -> separate_start -> push_null_weights
           -> (trim) -> unaryremove -> (trim)
   where the trims only drop rules. *)
From Coq Require Import List Arith Bool Lia.
From GV.lib Require Import Semiring.
From GV.model Require Import Cfg Transform Cky Transform2.
From GV.proofs Require Import TrimProofs.
Import ListNotations.
Local Open Scope sr_scope.

Section ShapeProofs.
Variable S : SR.

(* "terminal-free or unit": a body is a single terminal or contains no terminal *)
Definition tfu (b : list sym) : Prop := (exists a, b = [T a]) \/ (forall a, ~ In (T a) b).

(* membership in a candidate that is kept unless its test holds *)
Lemma in_guard {A} (c : bool) (x y : A) : In y (if c then [] else [x]) -> c = false /\ y = x.
Proof. destruct c; [intros []|intros [<-|[]]; split; reflexivity]. Qed.

Lemma bin_body_S f fresh (w : S) head y1 y2 y3 rest :
  fst (bin_body (Datatypes.S f) fresh w head (y1 :: y2 :: y3 :: rest)) =
  (1, fresh, [y1; y2]) :: fst (bin_body f (Datatypes.S fresh) w head (N fresh :: y3 :: rest)).
Proof. simpl. destruct (bin_body f _ w head _). reflexivity. Qed.

(* every emitted body has length <= 2 when the fuel suffices; it is the input body, or comes from a body of
   length >= 3 and contains no terminal that the input body does not contain *)
Lemma bin_body_rule : forall fuel fresh (w : S) head body r,
  In r (fst (bin_body fuel fresh w head body)) ->
  (length body <= fuel + 2 -> length (rbody r) <= 2) /\
  (rbody r = body \/ (3 <= length body /\ forall a, In (T a) (rbody r) -> In (T a) body)).
Proof.
  induction fuel as [|f IH]; intros fresh w head body r Hr.
  - destruct Hr as [<-|[]]. split; [exact (fun H => H)|left; reflexivity].
  - destruct body as [|y1 [|y2 [|y3 rest]]];
      try (destruct Hr as [<-|[]]; split; [intros _; simpl; lia|left; reflexivity]).
    rewrite bin_body_S in Hr. destruct Hr as [<-|Hr].
    + split; [intros _; apply le_n|right]. split; [simpl; lia|].
      intros a [H|[H|[]]]; [left|right; left]; exact H.
    + destruct (IH _ _ _ _ _ Hr) as [H1 H2]. split; [intros H; apply H1, le_S_n, H|right].
      split; [simpl; lia|]. intros a Ha.
      assert (Ha' : In (T a) (N fresh :: y3 :: rest)) by (destruct H2 as [<-|[_ H2]]; [exact Ha|exact (H2 a Ha)]).
      destruct Ha' as [Ha'|Ha']; [discriminate|right; right; exact Ha'].
Qed.

Definition bstep (acc : (grammar S * nat)%type) (r : rule S) : (grammar S * nat)%type :=
  let (out, fr) := acc in
  let (rs, fr') := bin_body (length (rbody r)) fr (rw r) (rhead r) (rbody r) in
  (out ++ rs, fr').

Lemma binarize_from_fold fresh (G : grammar S) : binarize_from fresh G = fold_left bstep G ([], fresh).
Proof. reflexivity. Qed.

Lemma bstep_eq out fr (r : rule S) :
  bstep (out, fr) r = (out ++ fst (bin_body (length (rbody r)) fr (rw r) (rhead r) (rbody r)),
                       snd (bin_body (length (rbody r)) fr (rw r) (rhead r) (rbody r))).
Proof. unfold bstep. destruct (bin_body _ _ _ _ _); reflexivity. Qed.

Lemma fold_bstep_in : forall (G : grammar S) out fr r,
  In r (fst (fold_left bstep G (out, fr))) ->
  In r out \/ exists r0 fr0, In r0 G /\
     In r (fst (bin_body (length (rbody r0)) fr0 (rw r0) (rhead r0) (rbody r0))).
Proof.
  induction G as [|r1 t IH]; intros out fr r Hr.
  - left; exact Hr.
  - change (In r (fst (fold_left bstep t (bstep (out, fr) r1)))) in Hr.
    rewrite bstep_eq in Hr. apply IH in Hr. destruct Hr as [Hr|[r0 [fr0 [H0 Hr]]]].
    + apply in_app_or in Hr. destruct Hr as [Hr|Hr]; [left; exact Hr|].
      right. exists r1, fr. split; [left; reflexivity|exact Hr].
    + right. exists r0, fr0. split; [right; exact H0|exact Hr].
Qed.

Lemma binarize_in : forall fresh (G : grammar S) r, In r (binarize fresh G) ->
  exists r0 fr0, In r0 G /\
     In r (fst (bin_body (length (rbody r0)) fr0 (rw r0) (rhead r0) (rbody r0))).
Proof.
  intros fresh G r Hr. unfold binarize in Hr. rewrite binarize_from_fold in Hr.
  apply fold_bstep_in in Hr. destruct Hr as [[]|Hr]. exact Hr.
Qed.

Theorem binarize_arity : forall (fresh : nat) (G : grammar S), arity_le2 (binarize fresh G) = true.
Proof.
  intros fresh G. apply arity_le2_spec. intros r Hr.
  destruct (binarize_in fresh G r Hr) as [r0 [fr0 [_ Hin]]].
  exact (proj1 (bin_body_rule _ _ _ _ _ _ Hin) (Nat.le_add_r _ 2)).
Qed.

Lemma binarize_tfu : forall fresh (G : grammar S),
  (forall r, In r G -> tfu (rbody r)) -> forall r, In r (binarize fresh G) -> tfu (rbody r).
Proof.
  intros fresh G HG r Hr.
  destruct (binarize_in fresh G r Hr) as [r0 [fr0 [H0 Hin]]].
  destruct (proj2 (bin_body_rule _ _ _ _ _ _ Hin)) as [E|[Hlen Hsub]].
  - rewrite E. apply HG; exact H0.
  - destruct (HG r0 H0) as [[a Ea]|Hn].
    + rewrite Ea in Hlen. simpl in Hlen. lia.
    + right. intros a Ha. apply (Hn a). apply Hsub; exact Ha.
Qed.

Lemma sep_no_T (pt : nat -> nat) (b : list sym) a : ~ In (T a) (map (sep_sym pt) b).
Proof.
  intros H. apply in_map_iff in H. destruct H as [[c|x] [E _]]; simpl in E; discriminate.
Qed.

Lemma separate_terminals_tfu : forall (pt : nat -> nat) (G : grammar S) r,
  In r (separate_terminals pt G) -> tfu (rbody r).
Proof.
  intros pt G r Hr. unfold separate_terminals in Hr. apply in_app_or in Hr.
  destruct Hr as [Hr|Hr]; apply in_map_iff in Hr.
  - destruct Hr as [a [E _]]. subst r. left. exists a. reflexivity.
  - destruct Hr as [r0 [E _]].
    destruct (rbody r0) as [|[a|x] [|s t]] eqn:Eb; subst r;
      try (right; intros c; apply (sep_no_T pt _ c)).
    left. exists a. exact Eb.
Qed.

Theorem separate_terminals_shape : forall (pt : nat -> nat) (G : grammar S),
  terminals_separated (separate_terminals pt G) = true.
Proof.
  intros pt G. apply terminals_separated_spec. intros r Hr.
  exact (separate_terminals_tfu pt G r Hr).
Qed.

Lemma null_exp_sub (nullw : nat -> S) nn s : forall b e,
  In e (null_expansions nullw nn s b) ->
  length (snd e) <= length b /\
  forall y, In y (snd e) -> exists y0, In y0 b /\ y = nn_sym nullw nn s y0.
Proof.
  induction b as [|y0 rest IH]; intros e He; simpl in He.
  - destruct He as [He|[]]. subst e. simpl. split; [lia|intros y []].
  - apply in_app_or in He. destruct He as [He|He]; apply in_map_iff in He;
      destruct He as [e0 [E He0]]; subst e; destruct (IH e0 He0) as [Hl Hs]; simpl.
    + split; [lia|]. intros y [Hy|Hy].
      * exists y0. split; [left; reflexivity|symmetry; exact Hy].
      * destruct (Hs y Hy) as [y1 [H1 E1]]. exists y1. split; [right; exact H1|exact E1].
    + split; [lia|]. intros y Hy.
      destruct (Hs y Hy) as [y1 [H1 E1]]. exists y1. split; [right; exact H1|exact E1].
Qed.

Lemma push_null_in : forall (nullw : nat -> S) nn s (G : grammar S) r,
  In r (push_null_weights nullw nn s G) ->
  (rbody r = [] /\ rhead r = s) \/
  (exists r0 e, In r0 G /\ In e (null_expansions nullw nn s (rbody r0)) /\
                rbody r = snd e /\ snd e <> []).
Proof.
  intros nullw nn s G r Hr. unfold push_null_weights in Hr. apply in_app_or in Hr.
  destruct Hr as [Hr|Hr].
  - left. apply in_guard in Hr. destruct Hr as [_ ->]. split; reflexivity.
  - right. apply in_flat_map in Hr. destruct Hr as [r0 [H0 Hr]]. exists r0.
    destruct (rbody r0) as [|y0 b0]; [destruct Hr|].
    apply in_flat_map in Hr. destruct Hr as [e [He Hr]]. exists e. split; [exact H0|]. split; [exact He|].
    destruct (snd e) as [|y1 nb]; [destruct Hr|].
    apply in_guard in Hr. destruct Hr as [_ ->]. split; [reflexivity|discriminate].
Qed.

Theorem push_null_no_nullary : forall nullw nn s (G : grammar S),
  no_nullary_except s (push_null_weights nullw nn s G) = true.
Proof.
  intros nullw nn s G. apply no_nullary_except_spec. intros r Hr Eb.
  destruct (push_null_in nullw nn s G r Hr) as [[_ H]|[r0 [e [_ [_ [E Hne]]]]]]; [exact H|].
  exfalso. apply Hne. rewrite <- E. exact Eb.
Qed.

Lemma unaryremove_in : forall (K : nat -> nat -> S) nts (G : grammar S) r,
  In r (unaryremove K nts G) ->
  exists r0 Y, In r0 G /\ is_unary r0 = false /\ In Y nts /\
               seqb (K Y (rhead r0) * rw r0) 0 = false /\
               r = (K Y (rhead r0) * rw r0, Y, rbody r0).
Proof.
  intros K nts G r Hr. unfold unaryremove in Hr. apply in_flat_map in Hr.
  destruct Hr as [r0 [H0 Hr]]. destruct (is_unary r0) eqn:Eu; [destruct Hr|].
  apply in_flat_map in Hr. destruct Hr as [Y [HY Hr]].
  apply in_guard in Hr. destruct Hr as [Hz ->].
  exists r0, Y. exact (conj H0 (conj Eu (conj HY (conj Hz eq_refl)))).
Qed.

Theorem unaryremove_no_unary : forall K nts (G : grammar S), no_unary (unaryremove K nts G) = true.
Proof.
  intros K nts G. apply no_unary_spec. intros r y Hr E.
  destruct (unaryremove_in K nts G r Hr) as [r0 [Y [_ [Hu [_ [_ Er]]]]]].
  subst r. unfold rbody in E; simpl in E. unfold is_unary in Hu. unfold rbody in Hu.
  rewrite E in Hu. discriminate.
Qed.

Lemma separate_start_in : forall (s' s : nat) (G : grammar S) r,
  In r (snd (separate_start s' s G)) -> r = (1, s', [N s]) \/ In r G.
Proof.
  intros s' s G r. unfold separate_start. destruct (on_rhs s G); simpl.
  - intros [H|H]; [left; symmetry; exact H|right; exact H].
  - intros H; right; exact H.
Qed.

Theorem separate_start_shape : forall (s' s : nat) (G : grammar S),
  (forall r, In r G -> ~ In (N s') (rbody r)) -> s' <> s ->
  start_not_on_rhs (fst (separate_start s' s G)) (snd (separate_start s' s G)) = true.
Proof.
  intros s' s G Hfresh Hne. unfold separate_start. destruct (on_rhs s G) eqn:E; simpl.
  - apply start_not_on_rhs_spec. intros r [Hr|Hr].
    + subst r. unfold rbody; simpl. intros [H|[]]. injection H as H. apply Hne. symmetry; exact H.
    + apply Hfresh; exact Hr.
  - unfold start_not_on_rhs. rewrite E. reflexivity.
Qed.

(* shape after push_null_weights: the only nullary rule is at the start symbol; the other
   bodies have length 1 or 2, are a single terminal or terminal-free, and do not mention
   the start symbol *)
Definition pre_cnf (s : nat) (G : grammar S) : Prop :=
  forall r, In r G ->
    (rbody r = [] /\ rhead r = s) \/
    (rbody r <> [] /\ length (rbody r) <= 2 /\ tfu (rbody r) /\
     forall y, In (N y) (rbody r) -> y <> s).

Lemma separate_start_all (P : rule S -> Prop) (s' s : nat) (G : grammar S) :
  P (1, s', [N s]) -> (forall r, In r G -> P r) -> forall r, In r (snd (separate_start s' s G)) -> P r.
Proof. intros H1 HG r Hr. destruct (separate_start_in s' s G r Hr) as [->|Hin]; [exact H1|exact (HG r Hin)]. Qed.

Lemma push_null_pre_cnf : forall (nullw : nat -> S) nn s (G : grammar S),
  (forall r, In r G -> tfu (rbody r)) ->
  (forall r, In r G -> length (rbody r) <= 2) ->
  (forall r, In r G -> ~ In (N s) (rbody r)) ->
  (forall x, nn x <> s) ->
  pre_cnf s (push_null_weights nullw nn s G).
Proof.
  intros nullw nn s G Htfu Hle Hrhs Hnn r Hr.
  destruct (push_null_in nullw nn s G r Hr) as [H|[r0 [e [H0 [He [Eb Hne]]]]]]; [left; exact H|].
  right. destruct (null_exp_sub nullw nn s (rbody r0) e He) as [Hlen Hsub].
  rewrite Eb. split; [exact Hne|]. split; [specialize (Hle r0 H0); lia|]. split.
  - destruct (Htfu r0 H0) as [[a Ea]|Hn].
    + left. exists a. rewrite Ea in Hlen, Hsub. simpl in Hlen.
      destruct (snd e) as [|y1 [|y2 t]]; [exfalso; apply Hne; reflexivity| |simpl in Hlen; lia].
      destruct (Hsub y1 (or_introl eq_refl)) as [y0 [[Hy0|[]] E]]. subst y0. simpl in E. rewrite E.
      reflexivity.
    + right. intros a Ha. destruct (Hsub (T a) Ha) as [y0 [Hy0 E]].
      destruct y0 as [c|x]; simpl in E; [|discriminate].
      injection E as E. subst c. apply (Hn a Hy0).
  - intros y Hy. destruct (Hsub (N y) Hy) as [y0 [Hy0 E]].
    destruct y0 as [c|x]; simpl in E; [discriminate|]. injection E as E. subst y.
    unfold nn_name. destruct (seqb (nullw x) 0 || Nat.eqb x s) eqn:Ec.
    + intros Ex. subst x. apply (Hrhs r0 H0 Hy0).
    + apply Hnn.
Qed.

(* unaryremove copies each non-unary rule X -> body to every Y with K Y X <> 0 (K the closure of the unary rules).
   The hypothesis on K keeps the nullary rule at s from being copied elsewhere: s is on no right-hand side after
   separate_start, so no chain of unary rules leads to it *)
Lemma unaryremove_cnf : forall (K : nat -> nat -> S) nts s (G : grammar S),
  pre_cnf s G -> (forall Y, Y <> s -> K Y s = 0) ->
  in_cnf s (unaryremove K nts G) = true.
Proof.
  intros K nts s G Hpre HK. unfold in_cnf. apply forallb_forall. intros r Hr.
  destruct (unaryremove_in K nts G r Hr) as [r0 [Y [H0 [Hu [_ [Hz Er]]]]]].
  subst r. unfold cnf_rule. unfold rbody at 1, rhead at 1. simpl.
  unfold is_unary in Hu.
  destruct (Hpre r0 H0) as [[Eb Eh]|[Hne [Hlen [Ht Hs]]]].
  - rewrite Eb. apply Nat.eqb_eq. destruct (Nat.eq_dec Y s) as [E|E]; [exact E|exfalso].
    (* the copy would have weight K Y s * w = 0 and is dropped *)
    rewrite Eh, (HK Y E), smul_0_l in Hz.
    destruct (seqb_reflect S 0 0) as [_|Hn]; [discriminate Hz|exact (Hn eq_refl)].
  - destruct (rbody r0) as [|y1 [|y2 [|y3 t]]].
    + exfalso; apply Hne; reflexivity.
    + destruct y1 as [a|x]; [reflexivity|discriminate].
    + destruct Ht as [[a Ea]|Hn]; [discriminate|].
      destruct y1 as [a|y]; [exfalso; apply (Hn a); left; reflexivity|].
      destruct y2 as [a|z]; [exfalso; apply (Hn a); right; left; reflexivity|].
      assert (Hy : y <> s) by (apply Hs; left; reflexivity).
      assert (Hzz : z <> s) by (apply Hs; right; left; reflexivity).
      apply Nat.eqb_neq in Hy. apply Nat.eqb_neq in Hzz. rewrite Hy, Hzz. reflexivity.
    + simpl in Hlen. lia.
Qed.

Lemma in_cnf_incl : forall s (G' G'' : grammar S),
  incl G'' G' -> in_cnf s G' = true -> in_cnf s G'' = true.
Proof.
  intros s G' G'' Hi H. apply forallb_forall. intros r Hr.
  exact (proj1 (forallb_forall _ _) H r (Hi r Hr)).
Qed.

Lemma unaryremove_incl (K : nat -> nat -> S) nts (G G' : grammar S) :
  incl G' G -> incl (unaryremove K nts G') (unaryremove K nts G).
Proof.
  intros Hi r Hr. unfold unaryremove in *. apply in_flat_map in Hr. destruct Hr as [r0 [H0 Hr]].
  apply in_flat_map. exists r0. split; [apply Hi, H0|exact Hr].
Qed.

(* the first four stages give the shape [pre_cnf]; unaryremove then yields Chomsky normal form *)
Theorem cnf_pipeline_shape : forall (G : grammar S) (pt : nat -> nat) (fresh s' s : nat)
    (nullw : nat -> S) (nn : nat -> nat) (K : nat -> nat -> S) (nts : list nat),
  let G1 := separate_terminals pt G in
  let G2 := binarize fresh G1 in
  let s2 := fst (separate_start s' s G2) in
  let G3 := snd (separate_start s' s G2) in
  let G4 := push_null_weights nullw nn s2 G3 in
  (forall r, In r G2 -> ~ In (N s') (rbody r)) -> s' <> s ->
  (forall x, nn x <> s2) ->
  (forall Y, Y <> s2 -> K Y s2 = 0) ->
  in_cnf s2 (unaryremove K nts G4) = true.
Proof.
  intros G pt fresh s' s nullw nn K nts G1 G2 s2 G3 G4 Hfresh Hne Hnn HK.
  apply unaryremove_cnf; [|exact HK]. apply push_null_pre_cnf; [| | |exact Hnn].
  - apply separate_start_all; [right; intros a [H|[]]; discriminate H|].
    apply binarize_tfu, separate_terminals_tfu.
  - apply (separate_start_all (fun r => length (rbody r) <= 2)); [simpl; lia|].
    apply arity_le2_spec, binarize_arity.
  - apply start_not_on_rhs_spec, separate_start_shape; assumption.
Qed.

End ShapeProofs.

Print Assumptions binarize_arity.
Print Assumptions separate_terminals_shape.
Print Assumptions push_null_no_nullary.
Print Assumptions unaryremove_no_unary.
Print Assumptions separate_start_shape.
Print Assumptions in_cnf_incl.
Print Assumptions cnf_pipeline_shape.
