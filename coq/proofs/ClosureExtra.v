(* Facts about the closure computed by Lehmann elimination:
   (1) for nilpotent (acyclic) systems the solution of x = g + E x is unique and
       equals the finite path sum  sum_{t<n} E^t g, in every commutative semiring
       (operator form, shared by the solvers, the total weight and epsilon removal);
       for matrices: X = I + A X has the one solution  sum_{m<n} A^m;
   (2) over the Boolean semiring the closure is exactly reachability.
  *)
From Coq Require Import List Arith Bool Lia.
From GV.lib Require Import Semiring BigSum.
From GV.model Require Import Linear.
From GV.proofs Require Import LehmannProof.
Import ListNotations.
Local Open Scope sr_scope.

(* Every commutative semiring is a star semiring with an everywhere-undefined
   star: statements over [StarSR] that never use star/sdef are therefore
   statements about arbitrary commutative semirings.  (fid, fmul, fadd of model/Linear.v
   stand in a StarSR section though they use no star, so facts about them are phrased over
   StarSR and brought to a plain semiring R through [TrivStar R].) *)
Definition TrivStar (R : SR) : StarSR.
Proof.
  refine (mkStarSR R (fun x => x) (fun _ => False) _ _); intros x H; destruct H.
Defined.

(* The linear operator  v |-> E v  on vectors indexed by a node list, its iterates, and
   the system  x = g + E x.  Unrolling the system n times leaves  E^n x  as remainder;
   when E^n = 0 the solution is therefore the finite sum  sum_{t<n} E^t g. *)
Section Operator.
Variable S : SR.
Add Ring SRingOp : (sth S).

Variables (st : list nat) (E : nat -> nat -> S).

Definition opE (v : nat -> S) (q : nat) : S := bsum st (fun j => E q j * v j).

Fixpoint opn (n : nat) (v : nat -> S) : nat -> S :=
  match n with O => v | Datatypes.S n' => opE (opn n' v) end.

Lemma opn_ext (v v' : nat -> S) : (forall j, In j st -> v j = v' j) ->
  forall n q, In q st -> opn n v q = opn n v' q.
Proof.
  intros H n. induction n as [|n IH]; intros q Hq; cbn [opn].
  - apply H, Hq.
  - apply bsum_ext; intros j Hj. rewrite (IH j Hj). reflexivity.
Qed.

Lemma opn_add (u v : nat -> S) n q : opn n (fun j => u j + v j) q = opn n u q + opn n v q.
Proof.
  revert q. induction n as [|n IH]; intros q; cbn [opn]; [reflexivity|].
  unfold opE. rewrite <- bsum_add. apply bsum_ext; intros j _. rewrite IH. ring.
Qed.

Lemma opn_succ_r n (v : nat -> S) q : opn (Datatypes.S n) v q = opn n (opE v) q.
Proof.
  revert q. induction n as [|n IH]; intros q; [reflexivity|].
  change (opE (opn (Datatypes.S n) v) q = opE (opn n (opE v)) q).
  apply bsum_ext; intros j _. rewrite IH. reflexivity.
Qed.

(* a family P_f with P_{f+1} = g + E P_f from index B on *)
Lemma opn_unroll (g : nat -> S) (P : nat -> nat -> S) (B : nat) :
  (forall f q, (B <= f)%nat -> In q st -> P (Datatypes.S f) q = g q + opE (P f) q) ->
  forall r f q, (B <= f)%nat -> In q st ->
    P (r + f)%nat q = bsum (seq 0 r) (fun t => opn t g q) + opn r (P f) q.
Proof.
  intros HP r. induction r as [|r IH]; intros f q Hf Hq.
  - cbn [seq Nat.add opn]. rewrite bsum_nil. symmetry. apply sadd_0_l.
  - rewrite Nat.add_succ_comm, IH by (try assumption; lia).
    rewrite (opn_ext _ (fun j => g j + opE (P f) j) (fun j Hj => HP f j Hf Hj) r q Hq).
    rewrite opn_add, <- opn_succ_r, bsum_seq_S. ring.
Qed.

Variable N : nat.
Hypothesis Hnil : forall v q, In q st -> opn N v q = 0.

Lemma nilpotent_family (g : nat -> S) (P : nat -> nat -> S) (B : nat) :
  (forall f q, (B <= f)%nat -> In q st -> P (Datatypes.S f) q = g q + opE (P f) q) ->
  forall f q, (B <= f)%nat -> In q st -> P (N + f)%nat q = bsum (seq 0 N) (fun t => opn t g q).
Proof.
  intros HP f q Hf Hq. rewrite (opn_unroll g P B HP N f q Hf Hq), Hnil by exact Hq. apply sadd_0_r.
Qed.

Theorem nilpotent_solution (g x : nat -> S) :
  (forall q, In q st -> x q = g q + opE x q) ->
  forall q, In q st -> x q = bsum (seq 0 N) (fun t => opn t g q).
Proof.
  intros Hx q Hq.
  exact (nilpotent_family g (fun _ => x) 0 (fun _ q' _ => Hx q') 0 q (le_n 0) Hq).
Qed.

Theorem nilpotent_series_solves (g : nat -> S) q : In q st ->
  bsum (seq 0 N) (fun t => opn t g q)
  = g q + opE (fun j => bsum (seq 0 N) (fun t => opn t g j)) q.
Proof.
  intros Hq.
  transitivity (bsum (seq 0 (Datatypes.S N)) (fun t => opn t g q)).
  - rewrite bsum_seq_S, Hnil by exact Hq. symmetry. apply sadd_0_r.
  - cbn [seq]. rewrite <- seq_shift, bsum_cons, bsum_map. f_equal.
    cbn [opn]. unfold opE. rewrite bsum_swap. apply bsum_ext; intros j _.
    rewrite bsum_mul_l. reflexivity.
Qed.

End Operator.

Arguments opE {S} st E v q. Arguments opn {S} st E n v q.

Section Nilpotent.
Variable S : StarSR.
Add Ring SRingCE : (sth S).

Fixpoint fpow (nodes : list nat) (A : nat -> nat -> S) (n : nat) : nat -> nat -> S :=
  match n with O => fid | Datatypes.S n' => fmul nodes A (fpow nodes A n') end.

Definition on_nodes (nodes : list nat) (P : nat -> nat -> Prop) :=
  forall i k, In i nodes -> In k nodes -> P i k.

(* the iterates of the operator are given by the powers of the matrix *)
Lemma opn_fpow (nodes : list nat) (A : nat -> nat -> S) n (v : nat -> S) : forall q, In q nodes ->
  opn nodes A n v q = bsum (nodup Nat.eq_dec nodes) (fun k => fpow nodes A n q k * v k).
Proof.
  induction n as [|n IH]; intros q Hq.
  - symmetry. apply (bsum_fid_l S); [apply NoDup_nodup|apply nodup_In; exact Hq].
  - cbn [opn fpow]. unfold opE, fmul.
    rewrite (bsum_ext S nodes _ (fun j => bsum (nodup Nat.eq_dec nodes)
                                            (fun k => A q j * (fpow nodes A n j k * v k)))).
    2:{ intros j Hj. rewrite (IH j Hj), bsum_mul_l. reflexivity. }
    rewrite bsum_swap. apply bsum_ext; intros k _.
    rewrite <- bsum_mul_r. apply bsum_ext; intros j _. apply smul_assoc.
Qed.

Lemma fpow_opn (nodes : list nat) (A : nat -> nat -> S) n q k : In q nodes -> In k nodes ->
  fpow nodes A n q k = opn nodes A n (fun j => fid j k) q.
Proof.
  intros Hq Hk. rewrite opn_fpow by exact Hq. symmetry.
  apply (bsum_fid S); [apply NoDup_nodup|apply nodup_In; exact Hk].
Qed.

Lemma fpow_nilpotent (nodes : list nat) (A : nat -> nat -> S) n :
  (forall i k, In i nodes -> In k nodes -> fpow nodes A n i k = 0) ->
  forall v q, In q nodes -> opn nodes A n v q = 0.
Proof.
  intros Hnil v q Hq. rewrite opn_fpow by exact Hq.
  apply bsum_zero; intros k Hk. apply nodup_In in Hk. rewrite (Hnil q k Hq Hk). apply smul_0_l.
Qed.

Theorem nilpotent_unique : forall (nodes : list nat) (A X : nat -> nat -> S) (n : nat),
  (forall i k, In i nodes -> In k nodes ->
     X i k = fid i k + bsum nodes (fun j => A i j * X j k)) ->
  (forall i k, In i nodes -> In k nodes -> fpow nodes A n i k = 0) ->
  forall i k, In i nodes -> In k nodes ->
    X i k = bsum (seq O n) (fun m => fpow nodes A m i k).
Proof.
  intros nodes A X n HX Hnil i k Hi Hk.
  rewrite (nilpotent_solution S nodes A n (fpow_nilpotent nodes A n Hnil)
             (fun j => fid j k) (fun j => X j k) (fun q Hq => HX q k Hq Hk) i Hi).
  apply bsum_ext; intros t _. symmetry. apply fpow_opn; assumption.
Qed.

Corollary lehmann_acyclic_pathsum : forall (nodes : list nat) (A : mat S) (n : nat),
  NoDup nodes -> defined S nodes A ->
  (forall i k, In i nodes -> In k nodes -> fpow nodes (mget A) n i k = 0) ->
  forall i k, In i nodes -> In k nodes ->
    mget (lehmann nodes A) i k = bsum (seq O n) (fun m => fpow nodes (mget A) m i k).
Proof.
  intros nodes A n Hnd Hdef Hnil.
  apply (nilpotent_unique nodes (mget A) (mget (lehmann nodes A)) n).
  - apply lehmann_fixpoint_l; assumption.
  - exact Hnil.
Qed.

End Nilpotent.

(* the same statement, read over an arbitrary commutative semiring *)
Corollary nilpotent_unique_SR : forall (R : SR) (nodes : list nat) (A X : nat -> nat -> R) (n : nat),
  (forall i k, In i nodes -> In k nodes ->
     X i k = @fid (TrivStar R) i k + bsum nodes (fun j => A i j * X j k)) ->
  (forall i k, In i nodes -> In k nodes -> fpow (TrivStar R) nodes A n i k = 0) ->
  forall i k, In i nodes -> In k nodes ->
    X i k = bsum (seq O n) (fun m => fpow (TrivStar R) nodes A m i k).
Proof. intros R. exact (nilpotent_unique (TrivStar R)). Qed.

Section BoolClosure.

Definition edge (A : mat BoolStar) (i k : nat) : Prop := mget A i k = true.

(* paths whose nodes after the first lie in [nodes]; the starting point need not *)
Inductive reachN (nodes : list nat) (A : mat BoolStar) : nat -> nat -> Prop :=
| reachN_refl : forall i, reachN nodes A i i
| reachN_step : forall i j k, In j nodes -> mget A i j = true ->
                  reachN nodes A j k -> reachN nodes A i k.

Lemma reachN_trans nodes A i j k :
  reachN nodes A i j -> reachN nodes A j k -> reachN nodes A i k.
Proof.
  intros H1 H2. induction H1 as [i|i j' j Hj' Hij' H1 IH].
  - exact H2.
  - apply (reachN_step nodes A i j' k Hj' Hij'). apply IH; exact H2.
Qed.

Lemma badd_true (a b : BoolStar) : a + b = true <-> a = true \/ b = true.
Proof. apply orb_true_iff. Qed.

Lemma bmul_true (a b : BoolStar) : a * b = true <-> a = true /\ b = true.
Proof. apply andb_true_iff. Qed.

Lemma bool_pivots_defined nodes todo (B : mat BoolStar) :
  pivots_defined BoolStar nodes todo B.
Proof.
  revert B. induction todo as [|j t IH]; intros B; simpl.
  - exact I.
  - split; [exact I|apply IH].
Qed.

Lemma bool_defined nodes (A : mat BoolStar) : defined BoolStar nodes A.
Proof. apply bool_pivots_defined. Qed.

Theorem lehmann_bool_complete : forall nodes (A : mat BoolStar) i k,
  NoDup nodes -> In i nodes -> In k nodes ->
  reachN nodes A i k -> mget (lehmann nodes A) i k = true.
Proof.
  intros nodes A i k Hnd Hi Hk Hr.
  pose proof (lehmann_fixpoint_l BoolStar nodes A Hnd (bool_defined nodes A)) as Hfix.
  induction Hr as [i|i j k Hj Hij Hr IH].
  - rewrite (Hfix i i Hi Hi). apply badd_true. left.
    unfold fid. rewrite Nat.eqb_refl. reflexivity.
  - rewrite (Hfix i k Hi Hk). apply badd_true. right.
    apply bool_bsum_true. exists j. split; [exact Hj|].
    apply bmul_true. split; [exact Hij|]. apply IH; assumption.
Qed.

(* soundness invariant through the elimination *)
Definition binv (nodes : list nat) (A B : mat BoolStar) : Prop :=
  forall i k, In i nodes -> In k nodes -> mget B i k = true -> reachN nodes A i k.

Lemma binv_step nodes A m B :
  In m nodes -> binv nodes A B -> binv nodes A (elim_step nodes m B).
Proof.
  intros Hm Hinv i k Hi Hk H.
  rewrite mget_elim_step in H by assumption.
  apply badd_true in H as [H|H].
  - apply Hinv; assumption.
  - apply bmul_true in H as [H Hmk]. apply bmul_true in H as [Him _].
    apply (reachN_trans nodes A i m k); apply Hinv; assumption.
Qed.

Lemma lehmann_trans_bool_sound nodes (A : mat BoolStar) :
  forall i k, In i nodes -> In k nodes ->
    mget (lehmann_trans nodes A) i k = true -> reachN nodes A i k.
Proof.
  apply (lehmann_trans_inv BoolStar nodes A (fun _ => binv nodes A)).
  - intros m _ B Hm _ Hinv _. apply binv_step; assumption.
  - intros i k Hi Hk E. rewrite mget_tabulate in E by assumption.
    apply (reachN_step nodes A i k k Hk E). apply reachN_refl.
  - apply bool_defined.
Qed.

Theorem lehmann_bool_sound : forall nodes (A : mat BoolStar) i k,
  NoDup nodes -> In i nodes -> In k nodes ->
  mget (lehmann nodes A) i k = true -> reachN nodes A i k.
Proof.
  intros nodes A i k _ Hi Hk H.
  rewrite mget_lehmann in H by assumption.
  apply badd_true in H as [H|H].
  - apply lehmann_trans_bool_sound; assumption.
  - unfold fid in H. destruct (Nat.eqb i k) eqn:E.
    + apply Nat.eqb_eq in E. subst k. apply reachN_refl.
    + discriminate H.
Qed.

Theorem lehmann_bool_reach : forall nodes (A : mat BoolStar) i k,
  NoDup nodes -> In i nodes -> In k nodes ->
  (mget (lehmann nodes A) i k = true <-> reachN nodes A i k).
Proof.
  intros nodes A i k Hnd Hi Hk. split.
  - apply lehmann_bool_sound; assumption.
  - apply lehmann_bool_complete; assumption.
Qed.

End BoolClosure.

Print Assumptions nilpotent_unique.
Print Assumptions lehmann_acyclic_pathsum.
Print Assumptions nilpotent_unique_SR.
Print Assumptions lehmann_bool_complete.
Print Assumptions lehmann_bool_sound.
Print Assumptions lehmann_bool_reach.
