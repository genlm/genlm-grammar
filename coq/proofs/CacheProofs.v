(* Memoised incremental parsing (model/Cache.v): every answer in every history of
   queries and cache clears equals the answer of a fresh object to that query alone.
   cols_r is the list of columns a parser without cache builds for a prefix; get_chart is
   Earley.chart / IncrementalCKY.chart, which looks the prefix up in _chart and otherwise
   recurses on x[:-1]; Clear is clear_cache; cache_ok says that every cached chart is the one
   cols_r gives. *)
From Coq Require Import List Arith.
From GV.model Require Import Cache.
Import ListNotations.

Section CacheProofs.
Variable col : Type.
Variable init : col.
Variable next : list col -> nat -> col.
Variable out : Type.
Variable answer : list col -> list nat -> out.

Lemma lookup_cons (k : list nat) (c : list col) (m : cache col) (r : list nat) :
  lookup ((k, c) :: m) r = if list_eq_dec Nat.eq_dec k r then Some c else lookup m r.
Proof. reflexivity. Qed.

Lemma cache_ok_nil : cache_ok init next (@nil (list nat * list col)).
Proof. intros r c H. simpl in H. discriminate H. Qed.

Lemma cache_ok_cons (k : list nat) (m : cache col) :
  cache_ok init next m -> cache_ok init next ((k, cols_r init next k) :: m).
Proof.
  intros Hok r c H. rewrite lookup_cons in H.
  destruct (list_eq_dec Nat.eq_dec k r) as [E|E].
  - inversion H; subst; reflexivity.
  - apply Hok; exact H.
Qed.

Lemma get_chart_eq (m : cache col) (r : list nat) :
  get_chart init next m r =
  match lookup m r with
  | Some c => (c, m)
  | None => match r with
            | [] => ([init], ([], [init]) :: m)
            | a :: r' => let (c, m') := get_chart init next m r' in
                         let c' := c ++ [next c a] in (c', (r, c') :: m')
            end
  end.
Proof. destruct r; reflexivity. Qed.

Lemma get_chart_spec : forall (m : cache col) (r : list nat), cache_ok init next m ->
  fst (get_chart init next m r) = cols_r init next r /\
  cache_ok init next (snd (get_chart init next m r)).
Proof.
  intros m r; revert m. induction r as [|a r' IH]; intros m Hok; rewrite get_chart_eq;
    (destruct (lookup m _) as [c|] eqn:E; [split; [exact (Hok _ _ E)|exact Hok]|]).
  - split; [reflexivity|apply (cache_ok_cons [] m Hok)].
  - destruct (IH m Hok) as [H1 H2].
    destruct (get_chart init next m r') as [c m']. cbn [fst snd] in *. subst c.
    split; [reflexivity|apply (cache_ok_cons (a :: r') m' H2)].
Qed.

Theorem step_history_independent : forall m o, cache_ok init next m ->
  snd (step init next answer m o) = fresh_answer init next answer o /\
  cache_ok init next (fst (step init next answer m o)).
Proof.
  intros m o Hok. destruct o as [r|]; simpl.
  - destruct (get_chart_spec m r Hok) as [H1 H2].
    destruct (get_chart init next m r) as [c m'] eqn:G. simpl in *. subst c.
    split; [reflexivity|exact H2].
  - split; [reflexivity|apply cache_ok_nil].
Qed.

Theorem run_history_independent : forall (ops : list op) (m : cache col), cache_ok init next m ->
  snd (run init next answer m ops) = map (fresh_answer init next answer) ops /\
  cache_ok init next (fst (run init next answer m ops)).
Proof.
  induction ops as [|o t IH]; intros m Hok.
  - simpl. split; [reflexivity|exact Hok].
  - simpl. destruct (step_history_independent m o Hok) as [H1 H2].
    destruct (step init next answer m o) as [m' a] eqn:St. simpl in H1, H2.
    destruct (IH m' H2) as [H3 H4].
    destruct (run init next answer m' t) as [m'' l] eqn:Rn. simpl in *.
    split; [rewrite H1, H3; reflexivity|exact H4].
Qed.

Corollary run_from_empty : forall ops,
  snd (run init next answer [] ops) = map (fresh_answer init next answer) ops.
Proof. intros ops. apply (run_history_independent ops [] cache_ok_nil). Qed.

Theorem run_split : forall ops1 ops2 m,
  snd (run init next answer m (ops1 ++ ops2)) =
  snd (run init next answer m ops1) ++
  snd (run init next answer (fst (run init next answer m ops1)) ops2).
Proof.
  induction ops1 as [|o t IH]; intros ops2 m.
  - reflexivity.
  - simpl. destruct (step init next answer m o) as [m' a] eqn:St.
    specialize (IH ops2 m').
    destruct (run init next answer m' (t ++ ops2)) as [m2 l2] eqn:R2.
    destruct (run init next answer m' t) as [m1 l1] eqn:R1.
    simpl in *. rewrite IH. reflexivity.
Qed.

End CacheProofs.

Print Assumptions get_chart_spec.
Print Assumptions step_history_independent.
Print Assumptions run_history_independent.
Print Assumptions run_from_empty.
Print Assumptions run_split.
