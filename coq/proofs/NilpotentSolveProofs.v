(* Linear systems over an acyclic weighted graph (nilpotent weight matrix):
   the right system  x = b + A x  and the left system  x = b + x A  have exactly
   one solution on the node set, namely the finite sum over all paths
       x i = sum_{m<n} sum_k (A^m) i k * b k        (right)
       x k = sum_{m<n} sum_i b i * (A^m) i k        (left)
   in every commutative semiring.  Whatever a solver returns, once it is known to
   return a solution, is therefore the path sum. *)
From Coq Require Import List NArith.
From GV.lib Require Import Semiring BigSum.
From GV.model Require Import Linear.
From GV.proofs Require Import LehmannProof ClosureExtra.
Import ListNotations.
Local Open Scope sr_scope.

Section NilpotentSolve.
Variable S : StarSR.
Add Ring SRingNS : (sth S).

Definition nilp (nodes : list nat) (A : nat -> nat -> S) (n : nat) : Prop :=
  forall i k, In i nodes -> In k nodes -> fpow S nodes A n i k = 0.

Definition ftr (A : nat -> nat -> S) : nat -> nat -> S := fun i k => A k i.

Theorem right_solution_is_path_sum : forall nodes A n b x, NoDup nodes -> nilp nodes A n ->
  (forall i, In i nodes -> x i = b i + bsum nodes (fun k => A i k * x k)) ->
  forall i, In i nodes ->
    x i = bsum (seq 0 n) (fun m => bsum nodes (fun k => fpow S nodes A m i k * b k)).
Proof.
  intros nodes A n b x Hnd Hnil Hx i Hi.
  rewrite (nilpotent_solution S nodes A n (fpow_nilpotent S nodes A n Hnil) b x Hx i Hi).
  apply bsum_ext; intros m _. rewrite opn_fpow, nodup_fixed_point by assumption. reflexivity.
Qed.

(* the left system is the right system of the transpose *)

Lemma opn_ftr (nodes : list nat) (A : nat -> nat -> S) : NoDup nodes ->
  forall m b k, In k nodes ->
  opn nodes (ftr A) m b k = bsum nodes (fun i => b i * fpow S nodes A m i k).
Proof.
  intros Hnd m. induction m as [|m IH]; intros b k Hk.
  - symmetry. apply bsum_fid; assumption.
  - rewrite opn_succ_r, (IH _ k Hk). unfold opE, ftr. cbn [fpow]. unfold fmul.
    rewrite (bsum_ext S nodes _ (fun i => bsum nodes (fun j => b j * (A j i * fpow S nodes A m i k)))).
    2:{ intros i _. rewrite <- bsum_mul_r. apply bsum_ext; intros j _. ring. }
    rewrite bsum_swap. apply bsum_ext; intros j _. rewrite bsum_mul_l. reflexivity.
Qed.

Theorem left_solution_is_path_sum : forall nodes A n b x, NoDup nodes -> nilp nodes A n ->
  (forall k, In k nodes -> x k = b k + bsum nodes (fun i => x i * A i k)) ->
  forall k, In k nodes ->
    x k = bsum (seq 0 n) (fun m => bsum nodes (fun i => b i * fpow S nodes A m i k)).
Proof.
  intros nodes A n b x Hnd Hnil Hx k Hk.
  rewrite (nilpotent_solution S nodes (ftr A) n) with (g := b) (x := x) (q := k); [| | |exact Hk].
  - apply bsum_ext; intros m _. apply opn_ftr; assumption.
  - intros v q Hq. rewrite opn_ftr by assumption.
    apply bsum_zero; intros i Hi. rewrite (Hnil i q Hi Hq). apply smul_0_r.
  - intros q Hq. rewrite (Hx q Hq). apply f_equal, bsum_ext; intros j _. apply smul_comm.
Qed.

Corollary right_solution_unique : forall nodes A n b x x', NoDup nodes -> nilp nodes A n ->
  (forall i, In i nodes -> x i = b i + bsum nodes (fun k => A i k * x k)) ->
  (forall i, In i nodes -> x' i = b i + bsum nodes (fun k => A i k * x' k)) ->
  forall i, In i nodes -> x i = x' i.
Proof.
  intros nodes A n b x x' Hnd Hnil Hx Hx' i Hi.
  rewrite (right_solution_is_path_sum nodes A n b x Hnd Hnil Hx i Hi).
  rewrite (right_solution_is_path_sum nodes A n b x' Hnd Hnil Hx' i Hi).
  reflexivity.
Qed.

Corollary left_solution_unique : forall nodes A n b x x', NoDup nodes -> nilp nodes A n ->
  (forall k, In k nodes -> x k = b k + bsum nodes (fun i => x i * A i k)) ->
  (forall k, In k nodes -> x' k = b k + bsum nodes (fun i => x' i * A i k)) ->
  forall k, In k nodes -> x k = x' k.
Proof.
  intros nodes A n b x x' Hnd Hnil Hx Hx' k Hk.
  rewrite (left_solution_is_path_sum nodes A n b x Hnd Hnil Hx k Hk).
  rewrite (left_solution_is_path_sum nodes A n b x' Hnd Hnil Hx' k Hk).
  reflexivity.
Qed.


Corollary right_solution_is_path_sum_mat : forall nodes (M : mat S) n b x,
  NoDup nodes -> nilp nodes (mget M) n ->
  (forall i, In i nodes -> x i = b i + bsum nodes (fun k => mget M i k * x k)) ->
  forall i, In i nodes ->
    x i = bsum (seq 0 n) (fun m => bsum nodes (fun k => fpow S nodes (mget M) m i k * b k)).
Proof. intros nodes M. apply right_solution_is_path_sum. Qed.

Corollary left_solution_is_path_sum_mat : forall nodes (M : mat S) n b x,
  NoDup nodes -> nilp nodes (mget M) n ->
  (forall k, In k nodes -> x k = b k + bsum nodes (fun i => x i * mget M i k)) ->
  forall k, In k nodes ->
    x k = bsum (seq 0 n) (fun m => bsum nodes (fun i => b i * fpow S nodes (mget M) m i k)).
Proof. intros nodes M. apply left_solution_is_path_sum. Qed.

End NilpotentSolve.

Print Assumptions right_solution_is_path_sum.
Print Assumptions left_solution_is_path_sum.
Print Assumptions right_solution_unique.
Print Assumptions left_solution_unique.
Print Assumptions right_solution_is_path_sum_mat.
Print Assumptions left_solution_is_path_sum_mat.

Section Example.

Definition NStarX : StarSR := TrivStar NSR.

Definition exN : list nat := [0; 1; 2]%nat.
Definition exA (i k : nat) : NStarX :=
  match i, k with
  | 0%nat, 1%nat => 2%N
  | 1%nat, 2%nat => 3%N
  | 0%nat, 2%nat => 4%N
  | _, _ => 0%N
  end.
Definition exb (i : nat) : NStarX := match i with 2%nat => 1%N | _ => 0%N end.
Definition exx (i : nat) : NStarX :=
  match i with 0%nat => 10%N | 1%nat => 3%N | 2%nat => 1%N | _ => 0%N end.

Example ex_nodup : NoDup exN.
Proof.
  unfold exN. repeat constructor; simpl; intuition discriminate.
Qed.

Example ex_right_system : forall i, In i exN ->
  exx i = sadd (exb i) (bsum exN (fun k => smul (exA i k) (exx k))).
Proof.
  intros i [<-|[<-|[<-|[]]]]; vm_compute; reflexivity.
Qed.

Example ex_nilp : nilp NStarX exN exA 3.
Proof.
  intros i k [<-|[<-|[<-|[]]]] [<-|[<-|[<-|[]]]]; vm_compute; reflexivity.
Qed.

Example ex_path_sum_value :
  bsum (seq 0 3) (fun m => bsum exN (fun k => smul (fpow NStarX exN exA m 0%nat k) (exb k))) = 10%N.
Proof. vm_compute. reflexivity. Qed.

(* the theorem applied: the solution at node 0 is the path sum, 2*3 + 4 = 10 *)
Example ex_solution_is_path_sum :
  exx 0%nat = bsum (seq 0 3) (fun m => bsum exN (fun k => smul (fpow NStarX exN exA m 0%nat k) (exb k))).
Proof.
  apply (right_solution_is_path_sum NStarX exN exA 3 exb exx ex_nodup ex_nilp ex_right_system).
  simpl; auto.
Qed.

(* A^2 is not zero: the bound 3 is not slack for this graph *)
Example ex_not_nilp2 : fpow NStarX exN exA 2 0%nat 2%nat = 6%N.
Proof. vm_compute. reflexivity. Qed.

End Example.

Print Assumptions ex_solution_is_path_sum.
