(* What the checkers of model/Cky.v (in_cnf) and model/Useful.v (reachable, all_useful, unary_cyclic) decide;
   the correspondence run evaluates them on the grammars the implementation returns.
   [reachable s G] is the checker's search: from s through EVERY rule.  The search that CFG.trim itself performs,
   TopDown.reachable G s (only through rules with generating bodies; arguments in the other order), is the subject
   of ReachProofs.v; its lemmas carry the same names as the ones here and are used qualified. *)
From Coq Require Import List Arith Bool Lia Relations.
From GV.lib Require Import Semiring.
From GV.model Require Import Cfg Transform Cky Useful.
From GV.model Require TopDown.
From GV.proofs Require Import Closure TrimProofs.
Import ListNotations.
Local Open Scope sr_scope.

Lemma memb_spec (x : nat) (l : list nat) : memb x l = true <-> In x l.
Proof. apply mem_spec. Qed.
Lemma memb_false (x : nat) (l : list nat) : memb x l = false <-> ~ In x l.
Proof. apply mem_false. Qed.

Lemma clos_trans_first {A} (R : relation A) x y : clos_trans A R x y -> exists z, R x z.
Proof. induction 1 as [x y H|x y z _ [w Hw] _ _]; [exists y; exact H|exists w; exact Hw]. Qed.

Lemma clos_trans_closed {A} (R : relation A) (P : A -> Prop) x :
  (forall y, y = x \/ P y -> forall z, R y z -> P z) -> forall z, clos_trans A R x z -> P z.
Proof.
  intros H z Hz. apply clos_trans_tn1 in Hz.
  induction Hz as [z Hz|y z Hyz _ IH]; [exact (H x (or_introl eq_refl) z Hz)|exact (H y (or_intror IH) z Hyz)].
Qed.

Section UsefulProofs.
Variable S : SR.

Theorem in_cnf_spec : forall s (G : grammar S), in_cnf s G = true <->
  (forall r, In r G ->
     (rbody r = [] /\ rhead r = s) \/ (exists a, rbody r = [T a]) \/
     (exists y z, rbody r = [N y; N z] /\ y <> s /\ z <> s)).
Proof.
  intros s G. unfold in_cnf. rewrite forallb_forall. split; intros H r Hr; specialize (H r Hr).
  - unfold cnf_rule in H. destruct (rbody r) as [|[a|y] [|[b|z] [|u t]]]; try discriminate.
    + left. split; [reflexivity|apply Nat.eqb_eq; exact H].
    + right; left. exists a; reflexivity.
    + right; right. exists y, z. apply andb_true_iff in H. destruct H as [H1 H2].
      apply negb_true_iff in H1. apply negb_true_iff in H2.
      apply Nat.eqb_neq in H1. apply Nat.eqb_neq in H2. repeat split; assumption.
  - unfold cnf_rule. destruct H as [[E Eh]|[[a E]|[y [z [E [Hy Hz]]]]]]; rewrite E.
    + apply Nat.eqb_eq; exact Eh.
    + reflexivity.
    + apply Nat.eqb_neq in Hy. apply Nat.eqb_neq in Hz. rewrite Hy, Hz. reflexivity.
Qed.

Inductive reach (G : grammar S) (s : nat) : nat -> Prop :=
| reach_start : reach G s s
| reach_rule : forall r y, In r G -> reach G s (rhead r) -> In (N y) (rbody r) -> reach G s y.

Definition rclosed (G : grammar S) (R : list nat) : Prop :=
  forall r, In r G -> In (rhead r) R -> forall y, In (N y) (rbody r) -> In y R.

(* the search as a saturation: a rule with a reached head asks for its body nonterminals *)
Definition reach_guard (R : list nat) (r : rule S) : bool := memb (rhead r) R.
Definition reach_tgt (r : rule S) : list nat := TopDown.body_nts (rbody r).

Lemma reach_pass_sat (G : grammar S) R : reach_pass S G R = sat_pass reach_guard reach_tgt G R.
Proof.
  apply fold_left_ext. intros R' r. unfold sat_step, reach_guard, reach_tgt.
  destruct (memb (rhead r) R'); [|reflexivity].
  generalize R'. induction (rbody r) as [|[a|x] t IH]; intros R0; [reflexivity|apply IH|apply IH].
Qed.

Lemma reach_iter_sat (G : grammar S) : forall n R, reach_iter S G n R = sat_iter reach_guard reach_tgt G n R.
Proof. apply (sat_iter_unique _ _ _ (reach_pass S G)); [apply reach_pass_sat|reflexivity|reflexivity]. Qed.

Theorem reachable_sound : forall s (G : grammar S) X, In X (reachable s G) -> reach G s X.
Proof.
  intros s G. unfold reachable. rewrite reach_iter_sat. apply sat_iter_sound.
  - intros R r y Hr HR Hh Hy. apply (reach_rule G s r y Hr); [apply HR, mem_spec, Hh|apply body_nts_In, Hy].
  - intros X [<-|[]]. apply reach_start.
Qed.

(* the names that can ever be added: at most 1 + the number of body symbols of G, which is where the fuel
   S (nts_count G) = 1 + |G| + that number of model/Useful.v comes from (more than the pigeonhole needs) *)
Definition runiv (s : nat) (G : grammar S) : list nat := s :: TopDown.body_nts (flat_map (fun r => rbody r) G).

Lemma runiv_bound s (G : grammar S) : sat_bound reach_guard reach_tgt G (runiv s G).
Proof.
  intros R r Hr _ _ y Hy. right. apply body_nts_In, in_flat_map. exists r. split; [exact Hr|apply body_nts_In, Hy].
Qed.

Theorem reachable_closed : forall s (G : grammar S), rclosed G (reachable s G).
Proof.
  intros s G r Hr Hh y Hy. unfold reachable in *. rewrite reach_iter_sat in *.
  apply (sat_iter_closed _ _ G _ (runiv_bound s G) _ [s]) with (a := r);
    [repeat constructor; intros []|intros x [<-|[]]; left; reflexivity| |exact Hr|apply mem_spec, Hh|apply body_nts_In, Hy].
  pose proof (body_nts_length (flat_map (fun r : rule S => rbody r) G)). unfold nts_count. simpl. lia.
Qed.

Lemma reachable_start : forall s (G : grammar S), In s (reachable s G).
Proof.
  intros s G. unfold reachable. rewrite reach_iter_sat.
  apply (extends_incl _ _ (sat_iter_extends _ _ G _ [s])). left; reflexivity.
Qed.

Theorem reachable_complete_if_closed : forall s (G : grammar S) R,
  In s R -> rclosed G R -> forall X, reach G s X -> In X R.
Proof.
  intros s G R Hs Hcl X HX. induction HX as [|r y Hr _ IH Hy]; [exact Hs|].
  apply (Hcl r Hr IH y Hy).
Qed.

Theorem reachable_complete : forall s (G : grammar S) X, reach G s X -> In X (reachable s G).
Proof.
  intros s G. apply reachable_complete_if_closed; [apply reachable_start|apply reachable_closed].
Qed.

Theorem reachable_spec : forall s (G : grammar S) X, In X (reachable s G) <-> reach G s X.
Proof. intros s G X; split; [apply reachable_sound|apply reachable_complete]. Qed.

Lemma useful_nt s (G : grammar S) x :
  memb x (generating G) && memb x (reachable s G) = true <-> productive G x /\ reach G s x.
Proof. rewrite andb_true_iff, !memb_spec, generating_spec, reachable_spec. reflexivity. Qed.

Theorem all_useful_spec : forall s (G : grammar S), all_useful s G = true <->
  (forall r, In r G ->
     (productive G (rhead r) /\ reach G s (rhead r)) /\
     (forall x, In (N x) (rbody r) -> productive G x /\ reach G s x)).
Proof.
  intros s G. unfold all_useful. cbv zeta. rewrite forallb_forall. split; intros H r Hr; specialize (H r Hr).
  - apply andb_true_iff in H. destruct H as [Hh Hb]. split; [apply useful_nt, Hh|].
    intros x Hx. apply useful_nt. exact (proj1 (forallb_forall _ _) Hb (N x) Hx).
  - destruct H as [Hh Hb]. apply andb_true_iff. split; [apply useful_nt, Hh|].
    apply forallb_forall. intros [a|x] Hx; [reflexivity|apply useful_nt, Hb, Hx].
Qed.

Lemma all_useful_start_productive (s : nat) (G : grammar S) (r : rule S) :
  all_useful s G = true -> In r G -> productive G s.
Proof.
  intros Hu Hr. pose proof (proj1 (all_useful_spec s G) Hu) as H.
  assert (Hx : forall X, reach G s X -> X = s \/ productive G s).
  { intros X HX. induction HX as [|r0 y Hin Hre IH Hy].
    - left; reflexivity.
    - right. destruct IH as [E|P]; [|exact P]. rewrite <- E. exact (proj1 (proj1 (H r0 Hin))). }
  destruct (H r Hr) as [[Hp Hre] _].
  destruct (Hx _ Hre) as [E|P]; [rewrite <- E; exact Hp|exact P].
Qed.

Definition uedge (G : grammar S) (X Y : nat) : Prop :=
  exists r, In r G /\ rhead r = X /\ rbody r = [N Y].

Lemma unary_succ_spec (G : grammar S) X y : In y (unary_succ G X) <-> uedge G X y.
Proof.
  unfold unary_succ, uedge. rewrite in_flat_map. split.
  - intros [r [Hr H]]. destruct (rbody r) as [|[a|z] [|u t]] eqn:E; try (destruct H; fail).
    destruct (Nat.eqb (rhead r) X) eqn:Eh; [|destruct H].
    destruct H as [H|[]]. subst z. exists r. apply Nat.eqb_eq in Eh. repeat split; assumption.
  - intros [r [Hr [Eh Eb]]]. exists r. split; [exact Hr|].
    rewrite Eb, Eh, Nat.eqb_refl. left; reflexivity.
Qed.

Definition bfs_fresh (G : grammar S) (front seen : list nat) : list nat :=
  filter (fun y => negb (memb y seen)) (nodup Nat.eq_dec (flat_map (unary_succ G) front)).

Lemma reach_from_S (G : grammar S) f front seen :
  reach_from G (Datatypes.S f) front seen =
  match bfs_fresh G front seen with
  | [] => seen
  | _ => reach_from G f (bfs_fresh G front seen) (bfs_fresh G front seen ++ seen)
  end.
Proof. reflexivity. Qed.

Lemma bfs_fresh_In (G : grammar S) front seen y :
  In y (bfs_fresh G front seen) <-> (exists x, In x front /\ uedge G x y) /\ ~ In y seen.
Proof.
  unfold bfs_fresh. rewrite filter_In, nodup_In, in_flat_map, negb_true_iff, memb_false.
  split; intros [[x [Hx H]] Hn]; (split; [exists x; split; [exact Hx|apply unary_succ_spec; exact H]|exact Hn]).
Qed.

Lemma bfs_fresh_NoDup (G : grammar S) front seen : NoDup (bfs_fresh G front seen).
Proof. unfold bfs_fresh. apply NoDup_filter, NoDup_nodup. Qed.

Lemma reach_from_sound (G : grammar S) X : forall fuel front seen,
  (forall y, In y front -> y = X \/ clos_trans nat (uedge G) X y) ->
  (forall y, In y seen -> clos_trans nat (uedge G) X y) ->
  forall y, In y (reach_from G fuel front seen) -> clos_trans nat (uedge G) X y.
Proof.
  induction fuel as [|f IH]; intros front seen Hf Hs y Hy; [apply Hs; exact Hy|].
  rewrite reach_from_S in Hy.
  assert (Hfr : forall z, In z (bfs_fresh G front seen) -> clos_trans nat (uedge G) X z).
  { intros z Hz. apply bfs_fresh_In in Hz. destruct Hz as [[x [Hx He]] _].
    destruct (Hf x Hx) as [E|Hc].
    - subst x. apply t_step. exact He.
    - eapply t_trans; [exact Hc|apply t_step; exact He]. }
  destruct (bfs_fresh G front seen) as [|z0 t] eqn:Ef; [apply Hs; exact Hy|].
  apply (IH (z0 :: t) ((z0 :: t) ++ seen)); [| |exact Hy].
  - intros z Hz. right. apply Hfr; exact Hz.
  - intros z Hz. apply in_app_or in Hz. destruct Hz as [Hz|Hz]; [apply Hfr; exact Hz|apply Hs; exact Hz].
Qed.

Theorem unary_cyclic_sound : forall (G : grammar S),
  unary_cyclic G = true -> exists X, clos_trans nat (uedge G) X X.
Proof.
  intros G H. unfold unary_cyclic in H. apply existsb_exists in H.
  destruct H as [X [_ HX]]. exists X. apply memb_spec in HX.
  apply (reach_from_sound G X (Datatypes.S (length G)) [X] []); [| |exact HX].
  - intros y [Hy|[]]. left; symmetry; exact Hy.
  - intros y [].
Qed.

(* a list no longer than G holding the targets of the unary rules: the universe of the search *)
Definition uuniv (G : grammar S) : list nat := map (fun r => match rbody r with [N y] => y | _ => O end) G.

Lemma uuniv_In (G : grammar S) x y : uedge G x y -> In y (uuniv G).
Proof. intros [r [Hr [_ Eb]]]. apply in_map_iff. exists r. rewrite Eb. split; [reflexivity|exact Hr]. Qed.

(* with enough fuel the search returns a set closed under the unary edges.  Invariant: each of X and the seen
   nodes either waits in the frontier or already has all its successors seen; a round with no fresh node then
   leaves nothing waiting, and each other round uses one unit of fuel for at least one new member of uuniv G *)
Lemma reach_from_closed (G : grammar S) X : forall fuel front seen,
  NoDup seen -> incl seen (uuniv G) -> length (uuniv G) < fuel + length seen ->
  (forall y, y = X \/ In y seen -> In y front \/ (forall z, uedge G y z -> In z seen)) ->
  forall y, y = X \/ In y (reach_from G fuel front seen) ->
  forall z, uedge G y z -> In z (reach_from G fuel front seen).
Proof.
  induction fuel as [|f IH]; intros front seen Hnd Hincl Hlen Hinv.
  - exfalso. pose proof (NoDup_incl_length Hnd Hincl). simpl in Hlen. lia.
  - rewrite reach_from_S.
    pose proof (bfs_fresh_In G front seen) as Hfr.
    pose proof (bfs_fresh_NoDup G front seen) as Hfnd.
    destruct (bfs_fresh G front seen) as [|z0 t] eqn:Ef.
    + intros y Hy z Hz. destruct (Hinv y Hy) as [Hyf|Hex]; [|apply Hex; exact Hz].
      destruct (in_dec Nat.eq_dec z seen) as [Hin|Hnin]; [exact Hin|].
      exfalso. apply (proj2 (Hfr z)). split; [exists y; split; assumption|exact Hnin].
    + apply IH.
      * apply NoDup_app_intro; [exact Hfnd|exact Hnd|].
        intros x Hx. apply (proj1 (Hfr x)) in Hx. exact (proj2 Hx).
      * intros x Hx. apply in_app_or in Hx. destruct Hx as [Hx|Hx]; [|apply Hincl; exact Hx].
        apply (proj1 (Hfr x)) in Hx. destruct Hx as [[x0 [_ He]] _]. apply (uuniv_In G x0 x He).
      * rewrite app_length. simpl. simpl in Hlen. lia.
      * intros y Hy.
        assert (Hcase : In y (z0 :: t) \/ (y = X \/ In y seen)).
        { destruct Hy as [Hy|Hy]; [right; left; exact Hy|].
          apply in_app_or in Hy. destruct Hy as [Hy|Hy]; [left; exact Hy|right; right; exact Hy]. }
        destruct Hcase as [Hy1|Hy2]; [left; exact Hy1|]. right.
        intros z Hz. destruct (Hinv y Hy2) as [Hyf|Hex].
        -- destruct (in_dec Nat.eq_dec z seen) as [Hin|Hnin]; [apply in_or_app; right; exact Hin|].
           apply in_or_app. left. apply (proj2 (Hfr z)).
           split; [exists y; split; assumption|exact Hnin].
        -- apply in_or_app. right. apply Hex; exact Hz.
Qed.

Theorem unary_cyclic_complete : forall (G : grammar S),
  (exists X, clos_trans nat (uedge G) X X) -> unary_cyclic G = true.
Proof.
  intros G [X HX]. unfold unary_cyclic. apply existsb_exists. exists X. split.
  - destruct (clos_trans_first _ _ _ HX) as [z [r [Hr [<- _]]]]. apply nodup_In, in_map, Hr.
  - apply memb_spec. revert HX. apply (clos_trans_closed _ (fun z => In z (reach_from G _ [X] []))).
    apply reach_from_closed.
    + constructor.
    + intros x [].
    + unfold uuniv. rewrite map_length. simpl. lia.
    + intros y [->|[]]. left. left. reflexivity.
Qed.

Theorem unary_cyclic_spec : forall (G : grammar S),
  unary_cyclic G = true <-> exists X, clos_trans nat (uedge G) X X.
Proof. intros G; split; [apply unary_cyclic_sound|apply unary_cyclic_complete]. Qed.

End UsefulProofs.

Print Assumptions in_cnf_spec.
Print Assumptions reachable_sound.
Print Assumptions reachable_closed.
Print Assumptions reachable_complete_if_closed.
Print Assumptions reachable_complete.
Print Assumptions reachable_spec.
Print Assumptions all_useful_spec.
Print Assumptions unary_cyclic_sound.
Print Assumptions unary_cyclic_complete.
Print Assumptions unary_cyclic_spec.
