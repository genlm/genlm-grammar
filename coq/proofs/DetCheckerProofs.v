(* What the Boolean checkers of model/Det.v (Section CHK) decide; the correspondence run evaluates them on the
   automata the implementation returns.  [deterministic m = true] iff there is at most one initial state, no
   epsilon arc, and at most one arc per (source state, symbol).  [is_trim m = true] iff every state the machine
   mentions lies on a path from an initial state and on a path to a final state.
   Det.v has its own searches Det.accessible / Det.coaccessible (rounds of [grow]: all fresh successors at once,
   stop at the first round that finds none); they are shown to compute the sets of TrimSearchProofs.v, so that
   [is_trim] agrees with [is_trim2], the same test written with the searches of model/TrimSearch.v. *)
From Coq Require Import List Arith BinNat Bool Lia.
From GV.lib Require Import Semiring.
From GV.model Require Import Wfsa TrimW Det.
From GV.proofs Require Import TrimSearchProofs.
Import ListNotations.

Lemma nodup_le1 (l : list nat) :
  length (nodup Nat.eq_dec l) <= 1 <-> (forall x y, In x l -> In y l -> x = y).
Proof.
  pose proof (NoDup_nodup Nat.eq_dec l) as ND. pose proof (nodup_In Nat.eq_dec l) as HI.
  destruct (nodup Nat.eq_dec l) as [|a [|b t]]; simpl.
  - split; [intros _ x y Hx; destruct (proj2 (HI x) Hx)|intros _; apply Nat.le_0_l].
  - split; [|intros _; apply le_n]. intros _ x y Hx Hy. apply HI in Hx, Hy.
    destruct Hx as [<-|[]], Hy as [<-|[]]. reflexivity.
  - split; [intros H; lia|intros H; exfalso]. inversion ND as [|? ? Hn _]; subst.
    apply Hn. left. apply H; apply HI; simpl; auto.
Qed.

Lemma no_dup_keys_spec (l : list (nat * nat)) : no_dup_keys l = true <-> NoDup l.
Proof.
  induction l as [|[i a] t IH]; simpl.
  - split; intros _; [constructor|reflexivity].
  - assert (Hin : existsb (fun e => Nat.eqb i (fst e) && Nat.eqb a (snd e)) t = true <-> In (i, a) t).
    { split.
      - intros H. apply existsb_exists in H. destruct H as [[i' a'] [Hin E]]. apply andb_prop in E as [E1 E2].
        apply Nat.eqb_eq in E1. apply Nat.eqb_eq in E2. simpl in E1, E2. subst. exact Hin.
      - intros Hin. apply existsb_exists. exists (i, a). split; [exact Hin|]. simpl. rewrite !Nat.eqb_refl. reflexivity. }
    split.
    + intros H. apply andb_prop in H as [H1 H2]. constructor; [|apply IH, H2].
      intros H. apply Hin in H. rewrite H in H1. discriminate H1.
    + intros H. apply NoDup_cons_iff in H as [Hn Ht]. rewrite (proj2 IH Ht), andb_true_r.
      destruct (existsb _ t); [|reflexivity]. exfalso. apply Hn, Hin. reflexivity.
Qed.

Lemma NoDup_map_nth_error {A B} (f : A -> B) (l : list A) :
  NoDup (map f l) <->
  (forall i j x y, nth_error l i = Some x -> nth_error l j = Some y -> f x = f y -> i = j).
Proof.
  split.
  - intros H0 i j x y Hi Hj E. apply (proj1 (NoDup_nth_error _) H0).
    + rewrite map_length. apply nth_error_Some. congruence.
    + rewrite !nth_error_map, Hi, Hj. simpl. congruence.
  - intros H. apply NoDup_nth_error. intros i j Hlt E. rewrite map_length in Hlt. rewrite !nth_error_map in E.
    destruct (nth_error l i) as [x|] eqn:Hi; [|apply nth_error_Some in Hlt; contradiction].
    destruct (nth_error l j) as [y|] eqn:Hj; [|discriminate]. injection E as E. exact (H i j x y Hi Hj E).
Qed.

(* a weaker test keeps at least as many elements, and more if some element tells the tests apart *)
Lemma filter_len_lt {A} (p1 p2 : A -> bool) (l : list A) :
  (forall a, p2 a = true -> p1 a = true) ->
  length (filter p2 l) <= length (filter p1 l) /\
  ((exists a, In a l /\ p1 a = true /\ p2 a = false) -> length (filter p2 l) < length (filter p1 l)).
Proof.
  intros H. induction l as [|a t [IHle IHlt]]; simpl; [split; [apply le_n|intros [x [[] _]]]|].
  destruct (p2 a) eqn:E2.
  - rewrite (H a E2). simpl. split; [lia|]. intros [x [[->|Hx] [E1 E]]]; [congruence|].
    apply -> Nat.succ_lt_mono. apply IHlt. exists x; auto.
  - destruct (p1 a) eqn:E1; simpl; (split; [lia|]); [lia|].
    intros [x [[->|Hx] [E1' E]]]; [congruence|]. apply IHlt. exists x; auto.
Qed.

Lemma filter_len_all {A} (p : A -> bool) (l : list A) : length (filter p l) <= length l.
Proof. induction l as [|a t IH]; simpl; [lia|]. destruct (p a); simpl; lia. Qed.

Lemma or_iff (A A' B B' : Prop) : (A <-> A') -> (B <-> B') -> (A \/ B <-> A' \/ B').
Proof. intros HA HB. split; (intros [H|H]; [left; apply HA, H|right; apply HB, H]). Qed.

Lemma in_map_fst {A B} (l : list (A * B)) (x : A) : In x (map fst l) <-> exists e, In e l /\ fst e = x.
Proof.
  split; [intros H; apply in_map_iff in H; destruct H as [e [H1 H2]]|intros [e [H2 H1]]; apply in_map_iff];
    exists e; split; assumption.
Qed.

Lemma forallb_iff {A} (p : A -> bool) (P : A -> Prop) (l : list A) :
  (forall x, p x = true <-> P x) -> (forallb p l = true <-> forall x, In x l -> P x).
Proof.
  intros H. split.
  - intros Hl x Hx. apply H. exact (proj1 (forallb_forall p l) Hl x Hx).
  - intros Hl. apply forallb_forall. intros x Hx. apply H, Hl, Hx.
Qed.

Lemma memq_spec (x : nat) (l : list nat) : memq x l = true <-> In x l.
Proof. exact (inb_spec x l). Qed.

Lemma memq_false (x : nat) (l : list nat) : memq x l = false <-> ~ In x l.
Proof. exact (inb_false x l). Qed.

Section DetChecker.
Variable S : SR.

Definition key (ar : arc S) : nat * nat := (asrc ar, match albl ar with Some a => a | None => O end).

Lemma keys_map (l : list (arc S)) : (forall ar, In ar l -> albl ar <> None) ->
  flat_map (fun ar => match albl ar with Some a => [(asrc ar, a)] | None => [] end) l = map key l.
Proof.
  induction l as [|ar t IH]; intros H; simpl; [reflexivity|].
  rewrite IH by (intros ar' H'; apply H; right; assumption).
  pose proof (H ar (or_introl eq_refl)) as Hn. unfold key.
  destruct (albl ar); [reflexivity|congruence].
Qed.

Lemma no_eps_forallb (l : list (arc S)) :
  forallb (fun ar => negb (is_eps (albl ar))) l = true <-> (forall ar, In ar l -> albl ar <> None).
Proof.
  apply forallb_iff. intros ar. destruct (albl ar); simpl; split; congruence.
Qed.

Lemma init_unique_spec (l : list (nat * S)) :
  Nat.leb (length (nodup Nat.eq_dec (map fst l))) 1 = true <->
  (forall e1 e2, In e1 l -> In e2 l -> fst e1 = fst e2).
Proof.
  eapply iff_trans; [apply Nat.leb_le|]. eapply iff_trans; [apply nodup_le1|]. split.
  - intros H e1 e2 H1 H2. apply H; apply in_map; assumption.
  - intros H x y Hx Hy. apply in_map_fst in Hx as [e1 [H1 <-]]. apply in_map_fst in Hy as [e2 [H2 <-]].
    apply H; assumption.
Qed.

(* by positions, not by arcs: the same arc listed twice is a clash too *)
Lemma keys_spec (l : list (arc S)) : (forall ar, In ar l -> albl ar <> None) ->
  no_dup_keys (flat_map (fun ar => match albl ar with Some a => [(asrc ar, a)] | None => [] end) l) = true <->
  (forall i j ar1 ar2 a, nth_error l i = Some ar1 -> nth_error l j = Some ar2 ->
     asrc ar1 = asrc ar2 -> albl ar1 = Some a -> albl ar2 = Some a -> i = j).
Proof.
  intros Hne. rewrite (keys_map l Hne).
  eapply iff_trans; [apply no_dup_keys_spec|]. eapply iff_trans; [apply NoDup_map_nth_error|]. split.
  - intros H i j ar1 ar2 a Hi Hj Es E1 E2. apply (H i j ar1 ar2 Hi Hj). unfold key. rewrite Es, E1, E2. reflexivity.
  - intros H i j ar1 ar2 Hi Hj E. unfold key in E.
    pose proof (Hne _ (nth_error_In _ _ Hi)) as N1. pose proof (Hne _ (nth_error_In _ _ Hj)) as N2.
    destruct (albl ar1) as [a|] eqn:E1; [|congruence]. destruct (albl ar2) as [b|] eqn:E2; [|congruence].
    injection E as Es <-. exact (H i j ar1 ar2 a Hi Hj Es E1 E2).
Qed.

Theorem deterministic_spec : forall (m : wfsa S),
  deterministic m = true <->
  ( (forall e1 e2, In e1 (winit m) -> In e2 (winit m) -> fst e1 = fst e2)
    /\ (forall ar, In ar (warcs m) -> albl ar <> None)
    /\ (forall i j ar1 ar2 a, nth_error (warcs m) i = Some ar1 -> nth_error (warcs m) j = Some ar2 ->
          asrc ar1 = asrc ar2 -> albl ar1 = Some a -> albl ar2 = Some a -> i = j) ).
Proof.
  intros m. unfold deterministic. split.
  - intros H. apply andb_prop in H as [H H3]. apply andb_prop in H as [H1 H2].
    pose proof (proj1 (no_eps_forallb _) H2) as H2'.
    split; [exact (proj1 (init_unique_spec _) H1)|]. split; [exact H2'|]. exact (proj1 (keys_spec _ H2') H3).
  - intros [H1 [H2 H3]].
    rewrite (proj2 (init_unique_spec _) H1), (proj2 (no_eps_forallb _) H2), (proj2 (keys_spec _ H2) H3).
    reflexivity.
Qed.

Definition is_trim2 (m : wfsa S) : bool := forallb (fun q => inb q (TrimSearch.active m)) (all_states m).

Lemma active_spec (m : wfsa S) q :
  inb q (TrimSearch.active m) = true <->
  (exists e, In e (winit m) /\ path_to m (fst e) q) /\ (exists e, In e (wfinal m) /\ path_to m q (fst e)).
Proof.
  split.
  - intros H. apply inb_spec in H. exact (trim_model_states_useful S m q H).
  - intros [Ha Hc]. apply inb_spec, filter_In.
    split; [apply accessible_spec, Ha|apply inb_spec, coaccessible_spec, Hc].
Qed.

Theorem is_trim2_spec : forall (m : wfsa S),
  is_trim2 m = true <->
  forall q, In q (all_states m) ->
    (exists e, In e (winit m) /\ path_to m (fst e) q) /\ (exists e, In e (wfinal m) /\ path_to m q (fst e)).
Proof. intros m. apply forallb_iff, active_spec. Qed.

Theorem all_states_spec : forall (m : wfsa S) q,
  In q (all_states m) <->
  (exists e, In e (winit m) /\ fst e = q) \/ (exists e, In e (wfinal m) /\ fst e = q) \/
  (exists ar, In ar (warcs m) /\ (asrc ar = q \/ adst ar = q)).
Proof.
  intros m q. unfold all_states.
  eapply iff_trans; [apply nodup_In|]. eapply iff_trans; [apply in_app_iff|]. apply or_iff; [apply in_map_fst|].
  eapply iff_trans; [apply in_app_iff|]. apply or_iff; [apply in_map_fst|].
  eapply iff_trans; [apply in_flat_map|].
  split; intros [ar [Har Hq]]; exists ar; (split; [exact Har|]); simpl in *; tauto.
Qed.

Lemma succs_In (m : wfsa S) (R : list nat) y :
  In y (succs S m R) <-> exists ar, In ar (warcs m) /\ In (asrc ar) R /\ adst ar = y.
Proof.
  unfold succs. eapply iff_trans; [apply nodup_In|]. eapply iff_trans; [apply in_flat_map|]. split; intros [ar [Har H]]; exists ar; (split; [assumption|]).
  - destruct (memq (asrc ar) R) eqn:E; [|destruct H]. apply memq_spec in E.
    destruct H as [H|[]]. split; assumption.
  - destruct H as [Hs Hd]. apply memq_spec in Hs. rewrite Hs. left. assumption.
Qed.

(* whatever holds of the start set and survives adding fresh elements holds of the result *)
Lemma grow_elim (T : list nat -> Prop) (step : list nat -> list nat) :
  (forall R, T R -> T (filter (fun x => negb (memq x R)) (step R) ++ R)) ->
  forall fuel R, T R -> T (grow step fuel R).
Proof.
  intros Hstep. induction fuel as [|f IH]; intros R HR; simpl; [exact HR|].
  pose proof (Hstep R HR) as HR'.
  destruct (filter (fun x => negb (memq x R)) (step R)); [exact HR|exact (IH _ HR')].
Qed.

Lemma grow_incl (step : list nat -> list nat) fuel R : incl R (grow step fuel R).
Proof. apply (grow_elim (incl R)); [intros R' H; apply incl_appr, H|apply incl_refl]. Qed.

Definition gmeasure (m : wfsa S) (R : list nat) : nat :=
  length (filter (fun ar => negb (memq (adst ar) R)) (warcs m)).

(* each round that adds something adds the target of an arc, so fewer arcs lead outside the set; the count starts
   at |arcs| at most, whence the fuel S |arcs| of Det.v *)
Lemma grow_closed (m : wfsa S) : forall fuel R, gmeasure m R < fuel -> aclosed m (grow (succs S m) fuel R).
Proof.
  induction fuel as [|f IH]; intros R Hm; [lia|]. simpl.
  pose proof (fun x => filter_In (fun x => negb (memq x R)) x (succs S m R)) as Hfr.
  destruct (filter (fun x => negb (memq x R)) (succs S m R)) as [|y fr].
  - intros ar Har Hs. destruct (memq (adst ar) R) eqn:Ed; [apply memq_spec, Ed|].
    destruct (proj2 (Hfr (adst ar))). split; [apply succs_In; exists ar; auto|rewrite Ed; reflexivity].
  - destruct (proj1 (Hfr y) (or_introl eq_refl)) as [Hy Hn]. apply succs_In in Hy as [ar [Har [_ <-]]].
    apply IH. apply (Nat.lt_le_trans _ (gmeasure m R)); [|lia]. refine (proj2 (filter_len_lt _ _ _ _) _).
    + intros a Ha. apply negb_true_iff, memq_false. apply negb_true_iff, memq_false in Ha.
      intros Hin. apply Ha. right. apply in_or_app. right. exact Hin.
    + exists ar. split; [exact Har|]. split; [exact Hn|].
      apply negb_false_iff, memq_spec. left. reflexivity.
Qed.

Theorem det_accessible_spec : forall (m : wfsa S) (q : nat),
  In q (Det.accessible m) <-> exists e, In e (winit m) /\ path_to m (fst e) q.
Proof.
  intros m q. unfold Det.accessible. split.
  - revert q. apply (grow_elim (fun R => forall q, In q R -> exists e, In e (winit m) /\ path_to m (fst e) q)).
    + intros R HR q Hq. apply in_app_or in Hq as [Hq|Hq]; [|exact (HR q Hq)].
      apply filter_In in Hq as [Hq _]. apply succs_In in Hq as [ar [Har [Hs <-]]].
      destruct (HR _ Hs) as [e [He Hp]]. exists e. split; [exact He|].
      exact (path_to_snoc S m (fst e) (asrc ar) Hp ar Har eq_refl).
    + intros x Hx. apply nodup_In, in_map_fst in Hx as [e [He <-]].
      exists e. split; [exact He|apply pt_refl].
  - intros [e [He Hp]]. apply (aclosed_path S m _ (fst e)); [|exact Hp|].
    + apply grow_closed, Nat.lt_succ_r, filter_len_all.
    + apply grow_incl, nodup_In, in_map, He.
Qed.

Lemma preds_reverse (m : wfsa S) (R : list nat) : preds S m R = succs S (wreverse m) R.
Proof.
  unfold preds, succs. f_equal. simpl warcs.
  induction (warcs m) as [|ar t IH]; simpl; [reflexivity|]. rewrite IH. reflexivity.
Qed.

Lemma det_coaccessible_reverse (m : wfsa S) : Det.coaccessible m = Det.accessible (wreverse m).
Proof.
  unfold Det.coaccessible, Det.accessible. simpl winit. simpl warcs. rewrite map_length.
  generalize (Datatypes.S (length (warcs m))) as fuel. generalize (nodup Nat.eq_dec (map fst (wfinal m))) as R.
  intros R fuel. revert R. induction fuel as [|f IH]; intros R; simpl; [reflexivity|].
  rewrite preds_reverse.
  destruct (filter (fun x => negb (memq x R)) (succs S (wreverse m) R)); [reflexivity|apply IH].
Qed.

Theorem det_coaccessible_spec : forall (m : wfsa S) (q : nat),
  In q (Det.coaccessible m) <-> exists e, In e (wfinal m) /\ path_to m q (fst e).
Proof.
  intros m q. rewrite det_coaccessible_reverse. eapply iff_trans; [apply det_accessible_spec|]. simpl winit.
  split; intros [e [He Hp]]; exists e; (split; [assumption|]); apply path_to_reverse; assumption.
Qed.

Theorem is_trim_spec : forall (m : wfsa S),
  is_trim m = true <->
  forall q, In q (all_states m) ->
    (exists e, In e (winit m) /\ path_to m (fst e) q) /\ (exists e, In e (wfinal m) /\ path_to m q (fst e)).
Proof.
  intros m. apply forallb_iff. intros q. split.
  - intros H. apply andb_prop in H as [H1 H2].
    split; [apply det_accessible_spec, memq_spec, H1|apply det_coaccessible_spec, memq_spec, H2].
  - intros [H1 H2]. apply andb_true_intro.
    split; apply memq_spec; [apply det_accessible_spec, H1|apply det_coaccessible_spec, H2].
Qed.

Theorem is_trim_agree : forall (m : wfsa S), is_trim m = is_trim2 m.
Proof.
  intros m. apply eq_true_iff_eq. exact (iff_trans (is_trim_spec m) (iff_sym (is_trim2_spec m))).
Qed.

End DetChecker.
Arguments is_trim2 {S} m.

Print Assumptions deterministic_spec.
Print Assumptions is_trim2_spec.
Print Assumptions all_states_spec.
Print Assumptions det_accessible_spec.
Print Assumptions det_coaccessible_spec.
Print Assumptions is_trim_spec.
Print Assumptions is_trim_agree.

(* init 0, final 2;  0 -5-> 1 (2), 1 -6-> 2 (3) *)
Definition dc_ex : wfsa NSR :=
  @mkW NSR [(O, 1%N)] [(2%nat, 1%N)] [ (O, Some 5%nat, 1%nat, 2%N); (1%nat, Some 6%nat, 2%nat, 3%N) ].
(* ... plus 1 -7-> 3 (1): state 3 is a dead end *)
Definition dc_ex_dead : wfsa NSR :=
  @mkW NSR [(O, 1%N)] [(2%nat, 1%N)]
      [ (O, Some 5%nat, 1%nat, 2%N); (1%nat, Some 6%nat, 2%nat, 3%N); (1%nat, Some 7%nat, 3%nat, 1%N) ].
(* ... plus a second arc 0 -5-> 2 (1) *)
Definition dc_ex_nondet : wfsa NSR :=
  @mkW NSR [(O, 1%N)] [(2%nat, 1%N)]
      [ (O, Some 5%nat, 1%nat, 2%N); (1%nat, Some 6%nat, 2%nat, 3%N); (O, Some 5%nat, 2%nat, 1%N) ].

Example dc_ex_ok : deterministic dc_ex = true /\ is_trim2 dc_ex = true /\ is_trim dc_ex = true.
Proof. vm_compute. repeat split; reflexivity. Qed.
Example dc_ex_dead_not_trim :
  is_trim2 dc_ex_dead = false /\ is_trim dc_ex_dead = false /\ deterministic dc_ex_dead = true.
Proof. vm_compute. repeat split; reflexivity. Qed.
Example dc_ex_nondet_not_det : deterministic dc_ex_nondet = false /\ is_trim2 dc_ex_nondet = true.
Proof. vm_compute. repeat split; reflexivity. Qed.

Print Assumptions dc_ex_ok.
Print Assumptions dc_ex_dead_not_trim.
Print Assumptions dc_ex_nondet_not_det.
