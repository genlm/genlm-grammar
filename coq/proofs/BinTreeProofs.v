(* binarize (model/Transform2.v) preserves the weighted language in the strongest form
   available over an arbitrary commutative semiring: there is a weight- and
   yield-preserving one-to-one correspondence [phi]/[psi] between the derivation trees
   of G and those of G' := binarize fresh G, for every nonterminal X < fresh, under
   the freshness hypotheses
     Hh : forall r, In r G -> rhead r < fresh
     Hb : forall r Y, In r G -> In (N Y) (rbody r) -> Y < fresh.
   A node  Node i (w, X, y1 :: y2 :: y3 :: ... :: yn) [t1; ...; tn]  becomes the left-nested chain
     Node (o+n-2) (w, X, [N F_{n-3}; yn])
       [ Node (o+n-3) (1, F_{n-3}, [N F_{n-4}; y_{n-1}]) [ ... Node o (1, F_0, [y1; y2]) [phi t1; phi t2] ... ; phi t_{n-1} ] ; phi tn ]
   where o = i + D G i is the position in G' of the first rule generated for the i-th
   rule of G, F_k = fresh + D G i + k, and D G i is the number of names invented for
   the rules before the i-th one. *)
From Coq Require Import List Arith Lia BinNat.
From GV.lib Require Import Semiring BigSum.
From GV.model Require Import Cfg Transform2.
From GV.proofs Require Import CfgTrees TreeMaps FoldProofs.
Import ListNotations.
Local Open Scope sr_scope.

Lemma firstn_snoc {A} : forall (l : list A) p y,
  nth_error l p = Some y -> firstn (Datatypes.S p) l = firstn p l ++ [y].
Proof.
  induction l as [|x l IH]; intros p y Hp; destruct p as [|p]; simpl in Hp; try discriminate.
  - injection Hp as Hp. subst y. reflexivity.
  - cbn [firstn app]. cbn [firstn] in IH. rewrite (IH p y Hp). reflexivity.
Qed.

Section BinTree.
Variable S : SR.
Add Ring SRingBin : (sth S).

Local Notation Sn := Datatypes.S.

Fixpoint fapp (f g : forest S) : forest S :=
  match f with Fnil => g | Fcons t f' => Fcons t (fapp f' g) end.

Fixpoint flen (f : forest S) : nat :=
  match f with Fnil => O | Fcons _ f' => Sn (flen f') end.

Lemma fapp_nil_r f : fapp f Fnil = f.
Proof. induction f as [|t f IH]; cbn [fapp]; [reflexivity|rewrite IH; reflexivity]. Qed.

Lemma fapp_assoc f g h : fapp (fapp f g) h = fapp f (fapp g h).
Proof. induction f as [|t f IH]; cbn [fapp]; [reflexivity|rewrite IH; reflexivity]. Qed.

Lemma fyield_fapp f g : fyield (fapp f g) = fyield f ++ fyield g.
Proof.
  induction f as [|t f IH]; cbn [fapp fyield]; [reflexivity|].
  rewrite IH, app_assoc. reflexivity.
Qed.

Lemma fweight_fapp f g : fweight (fapp f g) = fweight f * fweight g.
Proof.
  induction f as [|t f IH]; cbn [fapp fweight]; [ring|]. rewrite IH. ring.
Qed.

Lemma fheight_fapp f g : fheight (fapp f g) = Nat.max (fheight f) (fheight g).
Proof.
  induction f as [|t f IH]; cbn [fapp fheight]; [reflexivity|]. rewrite IH. apply Nat.max_assoc.
Qed.

Lemma fwf_fapp (G0 : grammar S) b1 b2 f1 f2 :
  fwf S G0 b1 f1 -> fwf S G0 b2 f2 -> fwf S G0 (b1 ++ b2) (fapp f1 f2).
Proof.
  intros H1 H2. induction H1 as [|s body t f Ht Hf IH]; cbn [app fapp]; [exact H2|].
  constructor; assumption.
Qed.

Lemma fwf_flen (G0 : grammar S) b f : fwf S G0 b f -> flen f = length b.
Proof.
  intros H. induction H as [|s body t f Ht Hf IH]; cbn [flen length]; [reflexivity|].
  rewrite IH. reflexivity.
Qed.

(* number of names invented for a rule: length of the body minus two *)
Definition ninv (r : rule S) : nat :=
  match rbody r with _ :: _ :: rest => length rest | _ => O end.

(* the rules generated for  X -> y1 y2 rest  with weight w and counter fr *)
Fixpoint bins (fr : nat) (w : S) (X : nat) (y1 y2 : sym) (rest : list sym) : list (rule S) :=
  match rest with
  | [] => [(w, X, [y1; y2])]
  | y3 :: rest' => (1, fr, [y1; y2]) :: bins (Sn fr) w X (N fr) y3 rest'
  end.

Definition blkrules (fr : nat) (r : rule S) : list (rule S) :=
  match rbody r with
  | y1 :: y2 :: rest => bins fr (rw r) (rhead r) y1 y2 rest
  | _ => [r]
  end.

(* bb gives a body its length as fuel, and each step uses up one unit of both *)
Lemma bin_body_bins : forall rest fr (w : S) X y1 y2,
  bin_body (Sn (Sn (length rest))) fr w X (y1 :: y2 :: rest)
  = (bins fr w X y1 y2 rest, (fr + length rest)%nat).
Proof.
  induction rest as [|y3 rest IH]; intros fr w X y1 y2; cbn [bins length].
  - rewrite bin_body_base by (right; apply le_n). rewrite Nat.add_0_r. reflexivity.
  - rewrite bin_body_step, IH, <- Nat.add_succ_comm. reflexivity.
Qed.

Lemma bb_eq fr (r : rule S) : bb S fr r = (blkrules fr r, (fr + ninv r)%nat).
Proof.
  destruct r as [[w X] body]. unfold bb, blkrules, ninv. cbn [rbody rw rhead fst snd].
  destruct body as [|y1 [|y2 rest]]; [| |apply bin_body_bins].
  all: rewrite bin_body_base, Nat.add_0_r by (right; repeat constructor); reflexivity.
Qed.

Lemma bins_length : forall rest fr (w : S) X y1 y2, length (bins fr w X y1 y2 rest) = Sn (length rest).
Proof.
  induction rest as [|y3 rest IH]; intros fr w X y1 y2; cbn [bins length]; [reflexivity|].
  rewrite IH. reflexivity.
Qed.

Lemma blkrules_length fr (r : rule S) : length (blkrules fr r) = Sn (ninv r).
Proof.
  unfold blkrules, ninv. destruct (rbody r) as [|y1 [|y2 rest]]; try reflexivity.
  apply bins_length.
Qed.

Lemma bins_nth : forall rest fr (w : S) X y1 y2 p r',
  nth_error (bins fr w X y1 y2 rest) p = Some r' ->
  p <= length rest /\
  ((p = length rest /\ rw r' = w /\ rhead r' = X) \/
   (p < length rest /\ rw r' = 1 /\ rhead r' = (fr + p)%nat)) /\
  ((p = O /\ rbody r' = [y1; y2]) \/
   (exists p' y, p = Sn p' /\ nth_error rest p' = Some y /\ rbody r' = [N (fr + p'); y])).
Proof.
  induction rest as [|y3 rest IH]; intros fr w X y1 y2 p r' Hp; cbn [bins] in Hp.
  - destruct p as [|p]; [|destruct p; discriminate Hp].
    injection Hp as <-. split; [apply le_n|]. split; [left; repeat split|left; split; reflexivity].
  - destruct p as [|q]; cbn [nth_error length] in Hp |- *.
    + injection Hp as <-. split; [apply Nat.le_0_l|]. split.
      * right. split; [apply Nat.lt_0_succ|]. split; [reflexivity|]. symmetry. apply Nat.add_0_r.
      * left. split; reflexivity.
    + destruct (IH _ _ _ _ _ _ _ Hp) as [Hle [Hhd Hbd]]. split; [apply le_n_S; exact Hle|]. split.
      * destruct Hhd as [[-> [E2 E3]]|[E1 [E2 E3]]].
        -- left. split; [reflexivity|]. split; assumption.
        -- right. split; [apply (proj1 (Nat.succ_lt_mono _ _) E1)|]. split; [assumption|].
           rewrite E3. apply Nat.add_succ_comm.
      * right. destruct Hbd as [[-> E2]|[p' [y [-> [E2 E3]]]]].
        -- exists O, y3. split; [reflexivity|]. split; [reflexivity|]. rewrite Nat.add_0_r. exact E2.
        -- exists (Sn p'), y. split; [reflexivity|]. split; [exact E2|].
           rewrite <- Nat.add_succ_comm. exact E3.
Qed.

(* number of names invented for the first i rules *)
Fixpoint D (G : grammar S) (i : nat) : nat :=
  match i, G with
  | Sn i', r :: t => (ninv r + D t i')%nat
  | _, _ => O
  end.

(* the rule of G from which the j-th rule of the binarized grammar was generated *)
Fixpoint blk (G : grammar S) (j : nat) : nat :=
  match G with
  | [] => O
  | r :: t => if Nat.leb j (ninv r) then O else Sn (blk t (j - Sn (ninv r)))
  end.

Lemma D_zero (G : grammar S) : D G O = O.
Proof. destruct G; reflexivity. Qed.

Lemma D_step : forall (G : grammar S) i r, nth_error G i = Some r -> D G (Sn i) = (D G i + ninv r)%nat.
Proof.
  induction G as [|r0 t IH]; intros i r Hi; [destruct i; discriminate Hi|].
  destruct i as [|i].
  - cbn [nth_error] in Hi. injection Hi as Hi. subst r0. cbn [D]. rewrite D_zero. lia.
  - cbn [nth_error] in Hi. specialize (IH i r Hi). cbn [D] in IH |- *. lia.
Qed.

Lemma D_mono : forall (G : grammar S) i i', i <= i' -> D G i <= D G i'.
Proof.
  induction G as [|r0 t IH]; intros i i' Hle.
  - destruct i, i'; cbn [D]; lia.
  - destruct i as [|i], i' as [|i']; cbn [D]; try lia.
    assert (H := IH i i'). lia.
Qed.

Lemma D_uniq (G : grammar S) i i0 r r0 p p0 :
  nth_error G i = Some r -> nth_error G i0 = Some r0 ->
  p < ninv r -> p0 < ninv r0 -> (D G i + p = D G i0 + p0)%nat -> i = i0.
Proof.
  intros Hi Hi0 Hp Hp0 E.
  destruct (Nat.lt_trichotomy i i0) as [Hlt|[Heq|Hgt]]; [|exact Heq|].
  - exfalso. pose proof (D_step G i r Hi) as H1.
    pose proof (D_mono G (Sn i) i0 Hlt) as H2. lia.
  - exfalso. pose proof (D_step G i0 r0 Hi0) as H1.
    pose proof (D_mono G (Sn i0) i Hgt) as H2. lia.
Qed.

Lemma blk_spec : forall (G : grammar S) i r p,
  nth_error G i = Some r -> p <= ninv r -> blk G (i + D G i + p) = i.
Proof.
  induction G as [|r0 t IH]; intros i r p Hi Hp; [destruct i; discriminate Hi|].
  destruct i as [|i].
  - cbn [nth_error] in Hi. injection Hi as Hi. subst r0. cbn [D blk]. cbn [Nat.add].
    destruct (Nat.leb_spec p (ninv r)) as [H|H]; [reflexivity|lia].
  - cbn [nth_error] in Hi. cbn [D blk].
    destruct (Nat.leb_spec (Sn i + (ninv r0 + D t i) + p) (ninv r0)) as [H|H]; [lia|].
    f_equal.
    replace (Sn i + (ninv r0 + D t i) + p - Sn (ninv r0))%nat with (i + D t i + p)%nat by lia.
    apply (IH i r p Hi Hp).
Qed.

Lemma binz_cons fr (r : rule S) t :
  fst (binz S fr (r :: t)) = blkrules fr r ++ fst (binz S (fr + ninv r) t).
Proof. cbn [binz fst]. rewrite bb_eq. reflexivity. Qed.

Lemma nth_binz_fwd : forall (G : grammar S) fr i r p r',
  nth_error G i = Some r ->
  nth_error (blkrules (fr + D G i) r) p = Some r' ->
  nth_error (fst (binz S fr G)) (i + D G i + p) = Some r'.
Proof.
  induction G as [|r0 t IH]; intros fr i r p r' Hi Hp; [destruct i; discriminate Hi|].
  rewrite binz_cons. destruct i as [|i].
  - cbn [nth_error] in Hi. injection Hi as Hi. subst r0. cbn [D] in Hp |- *.
    rewrite Nat.add_0_r in Hp. cbn [Nat.add].
    rewrite nth_error_app1; [exact Hp|]. apply nth_error_Some. rewrite Hp. discriminate.
  - cbn [nth_error] in Hi. cbn [D] in Hp |- *.
    rewrite nth_error_app2 by (rewrite blkrules_length; lia).
    rewrite blkrules_length.
    replace (Sn i + (ninv r0 + D t i) + p - Sn (ninv r0))%nat with (i + D t i + p)%nat by lia.
    apply (IH (fr + ninv r0)%nat i r p r' Hi).
    rewrite <- Nat.add_assoc. exact Hp.
Qed.

Lemma nth_binz_bwd : forall (G : grammar S) fr j r',
  nth_error (fst (binz S fr G)) j = Some r' ->
  exists i r p, nth_error G i = Some r /\ j = (i + D G i + p)%nat /\
                nth_error (blkrules (fr + D G i) r) p = Some r'.
Proof.
  induction G as [|r0 t IH]; intros fr j r' Hj.
  - cbn [binz fst] in Hj. destruct j; discriminate Hj.
  - rewrite binz_cons in Hj. destruct (Nat.lt_ge_cases j (Sn (ninv r0))) as [Hlt|Hge].
    + rewrite nth_error_app1 in Hj by (rewrite blkrules_length; exact Hlt).
      exists O, r0, j. split; [reflexivity|]. cbn [D]. split; [lia|].
      rewrite Nat.add_0_r. exact Hj.
    + rewrite nth_error_app2 in Hj by (rewrite blkrules_length; exact Hge).
      rewrite blkrules_length in Hj.
      destruct (IH _ _ _ Hj) as [i [r [p [Hi [Ej Hp]]]]].
      exists (Sn i), r, p. split; [exact Hi|]. cbn [D]. split; [lia|].
      rewrite Nat.add_assoc. exact Hp.
Qed.

(* t1 t2 are the first two children (t1 may be the chain built so far) *)
Fixpoint chain (off fr : nat) (w : S) (X : nat) (y1 y2 : sym) (rest : list sym)
         (t1 t2 : tree S) (ks : forest S) {struct rest} : tree S :=
  match rest, ks with
  | y3 :: rest', Fcons t3 ks' =>
      chain (Sn off) (Sn fr) w X (N fr) y3 rest'
            (Node off (1, fr, [y1; y2]) (Fcons t1 (Fcons t2 Fnil))) t3 ks'
  | _, _ => Node off (w, X, y1 :: y2 :: rest) (Fcons t1 (Fcons t2 ks))
  end.

Definition chainF (off fr : nat) (w : S) (X : nat) (body : list sym) (K : forest S) : tree S :=
  match body, K with
  | y1 :: y2 :: rest, Fcons t1 (Fcons t2 ks) => chain off fr w X y1 y2 rest t1 t2 ks
  | _, _ => Node off (w, X, body) K
  end.

Lemma rw_mk (w : S) X b : rw ((w, X, b) : rule S) = w.
Proof. reflexivity. Qed.

Lemma chain_wf (G0 : grammar S) : forall rest off fr w X y1 y2 t1 t2 ks,
  (forall p r', nth_error (bins fr w X y1 y2 rest) p = Some r' -> nth_error G0 (off + p) = Some r') ->
  twf S G0 y1 t1 -> twf S G0 y2 t2 -> fwf S G0 rest ks ->
  twf S G0 (N X) (chain off fr w X y1 y2 rest t1 t2 ks).
Proof.
  induction rest as [|y3 rest IH]; intros off fr w X y1 y2 t1 t2 ks Hpos H1 H2 Hks.
  - inversion Hks; subst. cbn [chain].
    change (N X) with (N (rhead ((w, X, [y1; y2]) : rule S))). constructor.
    + rewrite <- (Nat.add_0_r off). apply Hpos. reflexivity.
    + cbn [rbody snd]. constructor; [exact H1|]. constructor; [exact H2|constructor].
  - inversion Hks as [|s b t3 ks' H3 Hks']; subst. cbn [chain]. apply IH.
    + intros p r' Hp. rewrite Nat.add_succ_comm. apply Hpos. exact Hp.
    + change (N fr) with (N (rhead ((1, fr, [y1; y2]) : rule S))). constructor.
      * rewrite <- (Nat.add_0_r off). apply Hpos. reflexivity.
      * cbn [rbody snd]. constructor; [exact H1|]. constructor; [exact H2|constructor].
    + exact H3.
    + exact Hks'.
Qed.

Lemma chain_yield : forall rest off fr (w : S) X y1 y2 t1 t2 ks,
  tyield (chain off fr w X y1 y2 rest t1 t2 ks) = tyield t1 ++ tyield t2 ++ fyield ks.
Proof.
  induction rest as [|y3 rest IH]; intros off fr w X y1 y2 t1 t2 ks.
  - destruct ks; reflexivity.
  - destruct ks as [|t3 ks']; [reflexivity|]. cbn [chain]. rewrite IH.
    cbn [tyield fyield]. rewrite app_nil_r, <- !app_assoc. reflexivity.
Qed.

Lemma chain_weight : forall rest off fr (w : S) X y1 y2 t1 t2 ks,
  tweight (chain off fr w X y1 y2 rest t1 t2 ks) = w * (tweight t1 * (tweight t2 * fweight ks)).
Proof.
  induction rest as [|y3 rest IH]; intros off fr w X y1 y2 t1 t2 ks.
  - destruct ks; reflexivity.
  - destruct ks as [|t3 ks']; [reflexivity|]. cbn [chain]. rewrite IH.
    rewrite tweight_node, !fweight_cons, fweight_nil, rw_mk. ring.
Qed.

(* putting the first two trees of a forest under a node raises its height by at most one *)
Lemma fheight_pair_node off (r : rule S) t1 t2 f :
  fheight (Fcons t1 (Fcons t2 f)) <= fheight (Fcons (Node off r (Fcons t1 (Fcons t2 Fnil))) f) /\
  fheight (Fcons (Node off r (Fcons t1 (Fcons t2 Fnil))) f) <= Sn (fheight (Fcons t1 (Fcons t2 f))).
Proof. rewrite !fheight_cons, theight_node, !fheight_cons, fheight_nil, Nat.max_0_r. lia. Qed.

Lemma chain_height : forall rest off fr (w : S) X y1 y2 t1 t2 ks,
  Sn (fheight (Fcons t1 (Fcons t2 ks))) <= theight (chain off fr w X y1 y2 rest t1 t2 ks) /\
  theight (chain off fr w X y1 y2 rest t1 t2 ks) <= Sn (fheight (Fcons t1 (Fcons t2 ks))) + length rest.
Proof.
  induction rest as [|y3 rest IH]; intros off fr w X y1 y2 t1 t2 ks.
  - destruct ks; cbn [chain length]; rewrite theight_node; lia.
  - destruct ks as [|t3 ks']; [cbn [chain length]; rewrite theight_node; lia|].
    cbn [chain length].
    pose proof (IH (Sn off) (Sn fr) w X (N fr) y3
                   (Node off (1, fr, [y1; y2]) (Fcons t1 (Fcons t2 Fnil))) t3 ks') as H.
    pose proof (fheight_pair_node off (1, fr, [y1; y2]) t1 t2 (Fcons t3 ks')) as E.
    lia.
Qed.

Lemma chainF_wf (G0 : grammar S) off fr w X body K :
  (forall p r', nth_error (blkrules fr (w, X, body)) p = Some r' -> nth_error G0 (off + p) = Some r') ->
  fwf S G0 body K -> twf S G0 (N X) (chainF off fr w X body K).
Proof.
  intros Hpos HK. unfold blkrules in Hpos. cbn [rbody rw rhead fst snd] in Hpos.
  destruct body as [|y1 [|y2 rest]].
  - cbn [chainF]. change (N X) with (N (rhead ((w, X, []) : rule S))). constructor; [|exact HK].
    rewrite <- (Nat.add_0_r off). apply Hpos. reflexivity.
  - cbn [chainF]. change (N X) with (N (rhead ((w, X, [y1]) : rule S))). constructor; [|exact HK].
    rewrite <- (Nat.add_0_r off). apply Hpos. reflexivity.
  - inversion HK as [|s b t1 K1 H1 HK1]; subst. inversion HK1 as [|s' b' t2 ks H2 Hks]; subst.
    cbn [chainF]. apply chain_wf; assumption.
Qed.

Lemma chainF_yield off fr (w : S) X body K : tyield (chainF off fr w X body K) = fyield K.
Proof.
  destruct body as [|y1 [|y2 rest]]; try reflexivity.
  destruct K as [|t1 [|t2 ks]]; try reflexivity.
  cbn [chainF]. rewrite chain_yield. reflexivity.
Qed.

Lemma chainF_weight off fr (w : S) X body K : tweight (chainF off fr w X body K) = w * fweight K.
Proof.
  destruct body as [|y1 [|y2 rest]]; try reflexivity.
  destruct K as [|t1 [|t2 ks]]; try reflexivity.
  cbn [chainF]. rewrite chain_weight. reflexivity.
Qed.

Lemma chainF_height off fr (w : S) X body K :
  Sn (fheight K) <= theight (chainF off fr w X body K) /\
  theight (chainF off fr w X body K) <= Sn (fheight K) + ninv (w, X, body).
Proof.
  unfold ninv. cbn [rbody snd].
  destruct body as [|y1 [|y2 rest]]; try (cbn [chainF]; rewrite theight_node; lia).
  destruct K as [|t1 [|t2 ks]]; try (cbn [chainF]; rewrite theight_node; lia).
  cbn [chainF]. apply chain_height.
Qed.

(* the last step of a chain *)
Lemma chain_snoc : forall ra off fr (w : S) X y1 y2 y t1 t2 us t,
  flen us = length ra ->
  chain off fr w X y1 y2 (ra ++ [y]) t1 t2 (fapp us (Fcons t Fnil))
  = Node (off + Sn (length ra)) (w, X, [N (fr + length ra); y])
         (Fcons (chain off fr 1 (fr + length ra) y1 y2 ra t1 t2 us) (Fcons t Fnil)).
Proof.
  induction ra as [|y3 ra IH]; intros off fr w X y1 y2 y t1 t2 us t Hl.
  - destruct us as [|u us]; [|cbn [flen length] in Hl; discriminate Hl].
    cbn [app fapp chain length]. rewrite !Nat.add_0_r.
    rewrite Nat.add_1_r. reflexivity.
  - destruct us as [|t3 us]; [cbn [flen length] in Hl; discriminate Hl|].
    cbn [flen length] in Hl. injection Hl as Hl.
    cbn [app fapp chain length]. rewrite (IH _ _ _ _ _ _ _ _ _ _ _ Hl).
    rewrite !Nat.add_succ_comm. reflexivity.
Qed.

Lemma chainF_snoc ra off fr (w : S) X y1 y2 y K t :
  flen K = Sn (Sn (length ra)) ->
  chainF off fr w X ((y1 :: y2 :: ra) ++ [y]) (fapp K (Fcons t Fnil))
  = Node (off + Sn (length ra)) (w, X, [N (fr + length ra); y])
         (Fcons (chainF off fr 1 (fr + length ra) (y1 :: y2 :: ra) K) (Fcons t Fnil)).
Proof.
  intros Hl. destruct K as [|t1 [|t2 us]]; try (cbn [flen] in Hl; discriminate Hl).
  cbn [flen] in Hl. injection Hl as Hl. cbn [app fapp chainF]. apply chain_snoc. exact Hl.
Qed.

Variable fresh : nat.
Variable G : grammar S.

Hypothesis Hh : forall r, In r G -> rhead r < fresh.
Hypothesis Hb : forall r Y, In r G -> In (N Y) (rbody r) -> Y < fresh.

Definition G' : grammar S := binarize fresh G.

Lemma G'_eq : G' = fst (binz S fresh G).
Proof. apply binarize_binz. Qed.

Fixpoint phi (t : tree S) : tree S :=
  match t with
  | Leaf a => Leaf a
  | Node i r kids =>
      chainF (i + D G i) (fresh + D G i) (rw r) (rhead r) (rbody r) (phis kids)
  end
with phis (f : forest S) : forest S :=
  match f with
  | Fnil => Fnil
  | Fcons t f' => Fcons (phi t) (phis f')
  end.

(* replace a first child rooted at an invented nonterminal by its children *)
Definition splice (f : forest S) : forest S :=
  match f with
  | Fcons (Node _ r k) f' => if Nat.leb fresh (rhead r) then fapp k f' else f
  | _ => f
  end.

(* nodes of invented nonterminals keep their rule; the others get the rule of G from
   which their rule was generated *)
Definition mk (j : nat) (r' : rule S) (K : forest S) : tree S :=
  if Nat.leb fresh (rhead r') then Node j r' K
  else Node (blk G j) (nth (blk G j) G r') K.

Fixpoint psi (t : tree S) : tree S :=
  match t with
  | Leaf a => Leaf a
  | Node j r' kids => mk j r' (splice (psis kids))
  end
with psis (f : forest S) : forest S :=
  match f with
  | Fnil => Fnil
  | Fcons t f' => Fcons (psi t) (psis f')
  end.

Lemma phi_node i r kids :
  phi (Node i r kids) = chainF (i + D G i) (fresh + D G i) (rw r) (rhead r) (rbody r) (phis kids).
Proof. reflexivity. Qed.
Lemma phis_cons t f : phis (Fcons t f) = Fcons (phi t) (phis f).
Proof. reflexivity. Qed.
Lemma psi_node j r' kids : psi (Node j r' kids) = mk j r' (splice (psis kids)).
Proof. reflexivity. Qed.
Lemma psis_cons t f : psis (Fcons t f) = Fcons (psi t) (psis f).
Proof. reflexivity. Qed.

Lemma phis_fapp f g : phis (fapp f g) = fapp (phis f) (phis g).
Proof. induction f as [|t f IH]; cbn [fapp phis]; [reflexivity|rewrite IH; reflexivity]. Qed.

Lemma psis_fapp f g : psis (fapp f g) = fapp (psis f) (psis g).
Proof. induction f as [|t f IH]; cbn [fapp psis]; [reflexivity|rewrite IH; reflexivity]. Qed.

Lemma flen_phis f : flen (phis f) = flen f.
Proof. induction f as [|t f IH]; cbn [flen phis]; [reflexivity|rewrite IH; reflexivity]. Qed.

Lemma mk_inv j r' K : fresh <= rhead r' -> mk j r' K = Node j r' K.
Proof. intros H. unfold mk. apply Nat.leb_le in H. rewrite H. reflexivity. Qed.

Lemma mk_orig j r' K i r p :
  rhead r' < fresh -> nth_error G i = Some r -> p <= ninv r -> j = (i + D G i + p)%nat ->
  mk j r' K = Node i r K.
Proof.
  intros H Hi Hp Ej. unfold mk.
  assert (E : Nat.leb fresh (rhead r') = false) by (apply Nat.leb_gt; exact H).
  rewrite E. subst j. rewrite (blk_spec G i r p Hi Hp).
  rewrite (nth_error_nth G i r' Hi). reflexivity.
Qed.

Lemma splice_fapp a g1 g2 : fapp (splice (Fcons a g1)) g2 = splice (Fcons a (fapp g1 g2)).
Proof.
  destruct a as [b|j r k]; [reflexivity|]. cbn [splice].
  destruct (Nat.leb fresh (rhead r)); [apply fapp_assoc|reflexivity].
Qed.

Lemma splice_inv j r k f : fresh <= rhead r -> splice (Fcons (Node j r k) f) = fapp k f.
Proof. intros H. cbn [splice]. apply Nat.leb_le in H. rewrite H. reflexivity. Qed.

(* a well-formed forest of G has no invented first child *)
Lemma splice_wf body f : fwf S G body f -> splice f = f.
Proof.
  intros H. destruct f as [|t f']; [reflexivity|]. destruct t as [a|j r k]; [reflexivity|].
  inversion H as [|s b t0 f0 Ht Hf]; subst. inversion Ht as [|j0 r0 k0 Hn Hk]; subst.
  cbn [splice].
  assert (E : Nat.leb fresh (rhead r) = false).
  { apply Nat.leb_gt. apply Hh. apply (nth_error_In G j Hn). }
  rewrite E. reflexivity.
Qed.

(* psi undoes a chain *)
Lemma psi_chain : forall rest off fr (w : S) X y1 y2 c1 c2 cs,
  fresh <= fr -> flen cs = length rest ->
  exists r', rhead r' = X /\
    psi (chain off fr w X y1 y2 rest c1 c2 cs)
    = mk (off + length rest) r' (fapp (splice (Fcons (psi c1) (Fcons (psi c2) Fnil))) (psis cs)).
Proof.
  induction rest as [|y3 rest IH]; intros off fr w X y1 y2 c1 c2 cs Hfr Hl.
  - destruct cs as [|c3 cs]; [|cbn [flen length] in Hl; discriminate Hl].
    exists (w, X, [y1; y2]). split; [reflexivity|].
    cbn [chain length psis]. rewrite psi_node, fapp_nil_r, Nat.add_0_r. reflexivity.
  - destruct cs as [|c3 cs]; [cbn [flen length] in Hl; discriminate Hl|].
    cbn [flen length] in Hl. injection Hl as Hl. cbn [chain].
    destruct (IH (Sn off) (Sn fr) w X (N fr) y3
                 (Node off (1, fr, [y1; y2]) (Fcons c1 (Fcons c2 Fnil))) c3 cs
                 (le_S _ _ Hfr) Hl) as [r' [Er' Eq]].
    exists r'. split; [exact Er'|]. rewrite Eq. cbn [length].
    rewrite Nat.add_succ_comm. f_equal.
    rewrite psi_node. rewrite mk_inv by (cbn [rhead fst snd]; exact Hfr).
    rewrite splice_inv by (cbn [rhead fst snd]; exact Hfr).
    cbn [psis]. rewrite fapp_assoc. reflexivity.
Qed.

Lemma psi_chainF off fr (w : S) X body K :
  fresh <= fr -> flen K = length body ->
  exists r', rhead r' = X /\
    psi (chainF off fr w X body K) = mk (off + ninv (w, X, body)) r' (splice (psis K)).
Proof.
  intros Hfr Hl. unfold ninv. cbn [rbody snd].
  destruct body as [|y1 [|y2 rest]].
  - exists (w, X, []). split; [reflexivity|]. cbn [chainF]. rewrite psi_node, Nat.add_0_r. reflexivity.
  - exists (w, X, [y1]). split; [reflexivity|]. cbn [chainF]. rewrite psi_node, Nat.add_0_r. reflexivity.
  - destruct K as [|t1 [|t2 ks]]; try (cbn [flen length] in Hl; discriminate Hl).
    cbn [flen length] in Hl. injection Hl as Hl. cbn [chainF].
    destruct (psi_chain rest off fr w X y1 y2 t1 t2 ks Hfr Hl) as [r' [Er' Eq]].
    exists r'. split; [exact Er'|]. rewrite Eq. f_equal.
    rewrite splice_fapp. reflexivity.
Qed.

(* largest number of names invented for one rule (largest body length minus two) *)
Definition maxinv : nat := fold_right (fun r m => Nat.max (ninv r) m) O G.

Lemma maxinv_ge r : In r G -> ninv r <= maxinv.
Proof.
  unfold maxinv. clear Hh Hb. induction G as [|r0 t IH]; intros Hr; [destruct Hr|].
  cbn [fold_right]. destruct Hr as [Hr|Hr]; [subst r0; lia|].
  specialize (IH Hr). lia.
Qed.

Definition hb (h : nat) : nat := (h * Sn maxinv)%nat.

Lemma G'_pos i r p r' :
  nth_error G i = Some r -> nth_error (blkrules (fresh + D G i) r) p = Some r' ->
  nth_error G' (i + D G i + p) = Some r'.
Proof. intros Hi Hp. rewrite G'_eq. apply (nth_binz_fwd G fresh i r p r' Hi Hp). Qed.

(* phi does not lower a tree and raises it by at most the factor 1 + maxinv: a node becomes a
   chain of at most 1 + maxinv nodes *)
Local Notation hphi := (fun a b : nat => a <= b /\ b <= hb a).

Lemma hphi_ok : height_ok hphi.
Proof.
  unfold hb. split; [lia|]. split.
  - intros a b c d. rewrite <- Nat.mul_max_distr_r. lia.
  - intros a b. rewrite Nat.mul_succ_l. lia.
Qed.

Definition Pphi := tok S G' phi psi hphi.
Definition Qphi := fok S G' phis psis hphi.

Lemma phi_mut :
  (forall s t, twf S G s t -> Pphi s t) /\ (forall body f, fwf S G body f -> Qphi body f).
Proof.
  apply twf_fwf_ind.
  - intros a. apply (tok_leaf S G' phi psi hphi hphi_ok); reflexivity.
  - intros i r kids Hn Hk [Hw [Hy [Hwt [[Hh1 Hh2] Hps]]]]. unfold Pphi, tok.
    assert (HrG : In r G) by (apply (nth_error_In G i Hn)).
    assert (HX : rhead r < fresh) by (apply Hh; exact HrG).
    pose proof (maxinv_ge r HrG) as HM.
    rewrite phi_node. destruct r as [[w X] body]. cbn [rw rhead rbody fst snd] in *.
    split; [|split; [|split; [|split]]].
    + apply chainF_wf; [|exact Hw]. intros p r' Hp. apply (G'_pos i _ p r' Hn Hp).
    + rewrite chainF_yield. exact Hy.
    + rewrite chainF_weight, Hwt. reflexivity.
    + destruct (chainF_height (i + D G i) (fresh + D G i) w X body (phis kids)) as [H1 H2].
      rewrite theight_node. unfold hb in *. rewrite Nat.mul_succ_l. lia.
    + assert (Hl : flen (phis kids) = length body) by (apply (fwf_flen G' _ _ Hw)).
      destruct (psi_chainF (i + D G i) (fresh + D G i) w X body (phis kids)
                           (Nat.le_add_r _ _) Hl) as [r' [Er' Eq]].
      rewrite Eq, Hps. rewrite (splice_wf body kids Hk).
      apply (mk_orig _ r' kids i (w, X, body) (ninv (w, X, body))); [|exact Hn|lia|reflexivity].
      rewrite Er'. exact HX.
  - apply (fok_nil S G' phis psis hphi hphi_ok); reflexivity.
  - intros s body t f _ IHt _ IHf.
    apply (fok_cons S G' phi psi phis psis hphi hphi_ok); [reflexivity|reflexivity|exact IHt|exact IHf].
Qed.

(* a body without invented nonterminals *)
Definition orig (b : list sym) : Prop := forall Y, In (N Y) b -> Y < fresh.

(* t' is rooted at the invented nonterminal Z = the p-th name of the i-th rule of G:
   psi t' collects the first p+2 children of the node of G, and t' is the chain built
   from them *)
Definition Inv (Z : nat) (t' : tree S) : Prop :=
  exists i w X y1 y2 rest p j r1 K,
    nth_error G i = Some (w, X, y1 :: y2 :: rest) /\ p < length rest /\
    Z = (fresh + D G i + p)%nat /\
    psi t' = Node j r1 K /\ rhead r1 = Z /\
    fwf S G (y1 :: y2 :: firstn p rest) K /\
    fyield K = tyield t' /\ fweight K = tweight t' /\ fheight K <= theight t' /\
    t' = chainF (i + D G i) (fresh + D G i) 1 Z (y1 :: y2 :: firstn p rest) (phis K).

(* Inv is the form in which invented_tree_shape states these ten facts; the induction carries
   them as the one constructor of PChain, because taking a ten-fold exists/and apart and
   building it again at every node is slow to check *)
Inductive PChain (Z : nat) (t' : tree S) : Prop :=
| PChain_intro i w X y1 y2 rest p j r1 K :
    nth_error G i = Some (w, X, y1 :: y2 :: rest) -> p < length rest ->
    Z = (fresh + D G i + p)%nat ->
    psi t' = Node j r1 K -> rhead r1 = Z ->
    fwf S G (y1 :: y2 :: firstn p rest) K ->
    fyield K = tyield t' -> fweight K = tweight t' -> fheight K <= theight t' ->
    t' = chainF (i + D G i) (fresh + D G i) 1 Z (y1 :: y2 :: firstn p rest) (phis K) ->
    PChain Z t'.

Lemma PChain_Inv Z t' : PChain Z t' -> Inv Z t'.
Proof.
  intros [i w X y1 y2 rest p j r1 K H1 H2 H3 H4 H5 H6 H7 H8 H9 H10].
  exists i, w, X, y1, y2, rest, p, j, r1, K.
  exact (conj H1 (conj H2 (conj H3 (conj H4 (conj H5 (conj H6 (conj H7 (conj H8 (conj H9 H10))))))))).
Qed.

(* psi does not raise a tree *)
Local Notation hpsi := (bounded_by (fun h => h)).

Definition Tpsi := tok S G psi phi hpsi.
Definition Fpsi := fok S G psis phis hpsi.

(* a tree of an original nonterminal is mapped correctly; a tree of an invented one is a
   partial chain *)
Definition Ppsi (s' : sym) (t' : tree S) : Prop :=
  match s' with
  | T a => Tpsi s' t'
  | N Z => (Z < fresh -> Tpsi s' t') /\ (fresh <= Z -> PChain Z t')
  end.

(* a forest for a body of original symbols is mapped correctly *)
Definition Qo (body' : list sym) (f' : forest S) : Prop := orig body' -> Fpsi body' f'.

(* The body of a rule of G' may begin with an invented nonterminal (the rule continues a
   chain) and is original after that; so besides Qo for the whole forest the induction keeps
   what it knows of the first tree and of the remaining ones. *)
Definition Qpsi (body' : list sym) (f' : forest S) : Prop :=
  Qo body' f' /\
  match body', f' with
  | s' :: b, Fcons t' f'' => Ppsi s' t' /\ Qo b f''
  | _, _ => True
  end.

Lemma G'_locate j r' :
  nth_error G' j = Some r' ->
  exists i r p, nth_error G i = Some r /\ j = (i + D G i + p)%nat /\
                nth_error (blkrules (fresh + D G i) r) p = Some r'.
Proof. intros Hj. rewrite G'_eq in Hj. apply (nth_binz_bwd G fresh j r' Hj). Qed.

(* the node case for a rule of G with at most one body symbol *)
Lemma psi_node_short i w X body p j r' kids :
  nth_error G i = Some (w, X, body) -> length body <= 1 ->
  nth_error (blkrules (fresh + D G i) (w, X, body)) p = Some r' ->
  j = (i + D G i + p)%nat ->
  Qpsi (rbody r') kids -> Ppsi (N (rhead r')) (Node j r' kids).
Proof.
  intros Hi Hlen Hp -> IHk.
  assert (HrG : In (w, X, body) G) by (apply (nth_error_In G i Hi)).
  assert (Hblk : blkrules (fresh + D G i) (w, X, body) = [(w, X, body)]).
  { unfold blkrules. cbn [rbody snd]. destruct body as [|y1 [|y2 rest]]; try reflexivity.
    cbn [length] in Hlen. lia. }
  rewrite Hblk in Hp. destruct p as [|[|p]]; try discriminate Hp.
  injection Hp as <-. rewrite Nat.add_0_r. cbn [rhead rbody fst snd] in *.
  split; [intros _|intros Hge; pose proof (Hh _ HrG); cbn [rhead fst snd] in *; lia].
  assert (HF : Fpsi body kids) by (apply (proj1 IHk); intros Y HY; apply (Hb _ Y HrG HY)).
  apply (tok_node_moved S G psi phi psis phis hpsi no_higher_ok
                        (i + D G i) (w, X, body) kids i (w, X, body));
    [|exact Hi|reflexivity|reflexivity|exact HF|].
  - rewrite psi_node, (splice_wf body (psis kids) (proj1 HF)).
    apply (mk_orig _ _ _ i (w, X, body) O); [exact (Hh _ HrG)|exact Hi|apply Nat.le_0_l|symmetry; apply Nat.add_0_r].
  - intros g. rewrite phi_node. cbn [rw rhead rbody fst snd].
    destruct body as [|y1 [|y2 rest]]; try reflexivity. cbn [length] in Hlen. lia.
Qed.

(* an invented nonterminal names one position of one block *)
Lemma PChain_at i w X y1 y2 rest p c :
  nth_error G i = Some (w, X, y1 :: y2 :: rest) -> p < length rest ->
  PChain (fresh + D G i + p) c ->
  exists j1 r1 K1,
    psi c = Node j1 r1 K1 /\ fresh <= rhead r1 /\
    fwf S G (y1 :: y2 :: firstn p rest) K1 /\
    fyield K1 = tyield c /\ fweight K1 = tweight c /\ fheight K1 <= theight c /\
    c = chainF (i + D G i) (fresh + D G i) 1 (fresh + D G i + p) (y1 :: y2 :: firstn p rest) (phis K1).
Proof.
  intros Hi Hp [i0 w0 X0 z1 z2 rest0 p0 j1 r1 K1 Hi0 Hp0 EZ Eps Er1 HK1 Hy1 Hw1 Hh1 Ec1].
  assert (Ei : i = i0) by (apply (D_uniq G i i0 _ _ p p0 Hi Hi0); [exact Hp|exact Hp0|lia]).
  subst i0. rewrite Hi in Hi0. injection Hi0 as <- <- <- <- <-.
  assert (Ep0 : p0 = p) by lia. subst p0.
  exists j1, r1, K1. rewrite Er1.
  exact (conj Eps (conj (Nat.le_trans _ _ _ (Nat.le_add_r _ _) (Nat.le_add_r _ _))
          (conj HK1 (conj Hy1 (conj Hw1 (conj Hh1 Ec1)))))).
Qed.

(* the children of the p-th rule of a block, with the chain under the first child flattened,
   are the first p+2 children of the node of G, and the node is the chain built from them *)
Lemma psi_block i w X y1 y2 rest p w' Z b' kids :
  nth_error G i = Some (w, X, y1 :: y2 :: rest) -> p <= length rest ->
  (p = O /\ b' = [y1; y2]) \/
  (exists p' y, p = Sn p' /\ nth_error rest p' = Some y /\ b' = [N (fresh + D G i + p'); y]) ->
  fwf S G' b' kids -> Qpsi b' kids ->
  fwf S G (y1 :: y2 :: firstn p rest) (splice (psis kids)) /\
  fyield (splice (psis kids)) = fyield kids /\ fweight (splice (psis kids)) = fweight kids /\
  fheight (splice (psis kids)) <= fheight kids /\
  Node (i + D G i + p) (w', Z, b') kids
  = chainF (i + D G i) (fresh + D G i) w' Z (y1 :: y2 :: firstn p rest) (phis (splice (psis kids))).
Proof.
  intros Hi Hple Hbd Hk IHk.
  assert (Hob : orig (y1 :: y2 :: rest)).
  { intros Y HY. apply (Hb _ Y (nth_error_In G i Hi) HY). }
  destruct Hbd as [[-> ->]|(p' & y & -> & Hy & ->)].
  - (* the first rule of the block: both children are original *)
    assert (Ho2 : orig [y1; y2]).
    { intros Y HY. apply Hob. destruct HY as [HY|[HY|[]]]; [left|right; left]; exact HY. }
    destruct (proj1 IHk Ho2) as (Hw & Hyk & Hwt & Hht & Hph).
    rewrite (splice_wf _ _ Hw), Hph. cbn [firstn].
    split; [exact Hw|]. split; [exact Hyk|]. split; [exact Hwt|]. split; [exact Hht|].
    destruct (fwf_two_inv S G' _ _ _ Hk) as (c1 & c2 & -> & _ & _).
    cbn [chainF chain]. rewrite Nat.add_0_r. reflexivity.
  - (* a later rule: the first child is rooted at an invented nonterminal *)
    destruct (fwf_two_inv S G' _ _ _ Hk) as (c1 & c2 & -> & _ & _).
    destruct IHk as [_ [[_ IH1] IH2]].
    destruct (PChain_at i w X y1 y2 rest p' c1 Hi Hple
                (IH1 (Nat.le_trans _ _ _ (Nat.le_add_r _ _) (Nat.le_add_r _ _))))
      as (j1 & r1 & K1 & Eps & Hr1 & HK1 & Hy1 & Hw1 & Hh1 & Ec1).
    assert (Hoy : orig [y]).
    { intros Y [HY|[]]. apply Hob. right; right. rewrite <- HY. apply (nth_error_In rest p' Hy). }
    destruct (IH2 Hoy) as (Hw2 & Hy2 & Hwt2 & Hht2 & Hph2). unfold bounded_by in Hht2.
    assert (EK : splice (psis (Fcons c1 (Fcons c2 Fnil))) = fapp K1 (psis (Fcons c2 Fnil))).
    { rewrite psis_cons, Eps. apply splice_inv. exact Hr1. }
    rewrite EK, (firstn_snoc rest p' y Hy).
    change (y1 :: y2 :: firstn p' rest ++ [y]) with ((y1 :: y2 :: firstn p' rest) ++ [y]).
    split; [apply fwf_fapp; assumption|].
    split; [rewrite fyield_fapp, Hy1, Hy2; reflexivity|].
    split; [rewrite fweight_fapp, Hw1, Hwt2; reflexivity|].
    split; [rewrite fheight_fapp, fheight_cons; lia|].
    rewrite phis_fapp, Hph2.
    assert (Hlen : length (firstn p' rest) = p') by (apply firstn_length_le; lia).
    rewrite chainF_snoc by (rewrite flen_phis, (fwf_flen G _ _ HK1); cbn [length]; rewrite Hlen; reflexivity).
    rewrite Hlen, <- Ec1. reflexivity.
Qed.

(* the node case for a rule of G with at least two body symbols *)
Lemma psi_node_long i w X y1 y2 rest p j w' Z b' kids :
  nth_error G i = Some (w, X, y1 :: y2 :: rest) ->
  nth_error (bins (fresh + D G i) w X y1 y2 rest) p = Some (w', Z, b') ->
  j = (i + D G i + p)%nat ->
  fwf S G' b' kids ->
  Qpsi b' kids -> Ppsi (N Z) (Node j (w', Z, b') kids).
Proof.
  intros Hi Hp -> Hk IHk.
  assert (HX : X < fresh) by (apply (Hh _ (nth_error_In G i Hi))).
  destruct (bins_nth _ _ _ _ _ _ _ _ Hp) as [Hple [Hhd Hbd]].
  cbn [rw rhead rbody fst snd] in Hhd, Hbd.
  destruct (psi_block i w X y1 y2 rest p w' Z b' kids Hi Hple Hbd Hk IHk) as (UK & Uy & Uw & Uh & Uc).
  set (K := splice (psis kids)) in *.
  assert (Eps : psi (Node (i + D G i + p) (w', Z, b') kids) = mk (i + D G i + p) (w', Z, b') K)
    by (apply psi_node).
  destruct Hhd as [[Ep [Ew Ehd]]|[Ep [Ew Ehd]]]; subst w' Z.
  - (* the last rule of the block: head X *)
    split; [intros _|intros Hge; exfalso; lia].
    subst p. rewrite firstn_all in UK, Uc.
    apply (tok_node S G psi phi hpsi _ (w, X, b') kids i (w, X, y1 :: y2 :: rest) K);
      [|exact Hi|reflexivity|exact UK|exact Uy|rewrite Uw; reflexivity|apply le_n_S; exact Uh|].
    + rewrite Eps. apply (mk_orig _ _ _ i (w, X, y1 :: y2 :: rest) (length rest));
        [exact HX|exact Hi|apply le_n|reflexivity].
    + rewrite phi_node. symmetry. exact Uc.
  - (* an inner rule: head invented *)
    split; [intros Hlt; exfalso; lia|intros _].
    apply (PChain_intro _ _ i w X y1 y2 rest p (i + D G i + p)%nat (1, (fresh + D G i + p)%nat, b') K);
      [exact Hi|exact Ep|reflexivity|rewrite Eps; apply mk_inv; cbn [rhead fst snd]; lia|reflexivity
      |exact UK|rewrite tyield_node; exact Uy|rewrite tweight_node, Uw; symmetry; apply smul_1_l
      |rewrite theight_node; apply le_S; exact Uh|exact Uc].
Qed.

Lemma psi_mut :
  (forall s' t', twf S G' s' t' -> Ppsi s' t') /\
  (forall body' f', fwf S G' body' f' -> Qpsi body' f').
Proof.
  apply twf_fwf_ind.
  - intros a. apply (tok_leaf S G psi phi hpsi no_higher_ok); reflexivity.
  - intros j r' kids Hn Hk IHk.
    destruct (G'_locate j r' Hn) as [i [r [p [Hi [Ej Hp]]]]].
    destruct r as [[w X] body].
    destruct body as [|y1 [|y2 rest]].
    + exact (psi_node_short i w X [] p j r' kids Hi (Nat.le_0_l 1) Hp Ej IHk).
    + exact (psi_node_short i w X [y1] p j r' kids Hi (le_n 1) Hp Ej IHk).
    + destruct r' as [[w' Z] b']. apply (psi_node_long i w X y1 y2 rest p j w' Z b' kids Hi Hp Ej Hk IHk).
  - split; [|exact I]. intros _. apply (fok_nil S G psis phis hpsi no_higher_ok); reflexivity.
  - intros s' body' t' f' Ht' IHt' Hf' IHf'.
    split; [|split; [exact IHt'|exact (proj1 IHf')]].
    intros Ho.
    apply (fok_cons S G psi phi psis phis hpsi no_higher_ok);
      [reflexivity|reflexivity| |apply (proj1 IHf'); intros Y HY; apply Ho; right; exact HY].
    destruct s' as [a|Z]; [exact IHt'|]. apply (proj1 IHt'), Ho. left. reflexivity.
Qed.

Lemma twf_root_lt X t : twf S G (N X) t -> X < fresh.
Proof.
  intros H. inversion H as [|i r kids Hn Hk]; subst. apply Hh. apply (nth_error_In G i Hn).
Qed.

Lemma phi_all X t : twf S G (N X) t -> tok S G' phi psi (bounded_by hb) (N X) t.
Proof.
  intros H. destruct (proj1 phi_mut (N X) t H) as (H1 & H2 & H3 & [_ H4] & H5).
  exact (conj H1 (conj H2 (conj H3 (conj H4 H5)))).
Qed.

Theorem phis_facts body f :
  fwf S G body f ->
  fwf S G' body (phis f) /\ fyield (phis f) = fyield f /\ fweight (phis f) = fweight f /\
  (fheight f <= fheight (phis f) /\ fheight (phis f) <= hb (fheight f)) /\
  psis (phis f) = f.
Proof. intros H. exact (proj2 phi_mut body f H). Qed.

Lemma psi_all X : X < fresh -> forall t', twf S G' (N X) t' -> Tpsi (N X) t'.
Proof. intros HX t' H. exact (proj1 (proj1 psi_mut (N X) t' H) HX). Qed.

(* the trees of an invented nonterminal: psi collects the children of the partial chain *)
Theorem invented_tree_shape Z t' : fresh <= Z -> twf S G' (N Z) t' -> Inv Z t'.
Proof. intros HZ H. exact (PChain_Inv Z t' (proj2 (proj1 psi_mut (N Z) t' H) HZ)). Qed.

Lemma hb_mono a b : a <= b -> hb a <= hb b.
Proof. intros H. unfold hb. apply Nat.mul_le_mono_r. exact H. Qed.

(* every tree of G' of height <= h is the image of a tree of G of height <= h; in the other
   direction the bound is the one of psi *)
Theorem trees_phi_onto h X t' :
  X < fresh -> In t' (trees G' h X) -> exists t, In t (trees G h X) /\ phi t = t'.
Proof.
  intros HX. exact (tmap_onto S G' G psi phi (fun h => h) X (psi_all X HX) bound_id_mono h t').
Qed.

Theorem trees_psi_onto h X t :
  In t (trees G h X) -> exists t', In t' (trees G' (hb h) X) /\ psi t' = t.
Proof. exact (tmap_onto S G G' phi psi hb X (phi_all X) hb_mono h t). Qed.

(* the weighted form: W G h X xs is a sum over a duplicate-free sub-list of the trees of
   G' of height <= hb h, with the same weights and yields *)
Theorem W_sub_sum h X xs :
  NoDup (map phi (trees G h X)) /\
  incl (map phi (trees G h X)) (trees G' (hb h) X) /\
  W G h X xs = bsum (filter (yields xs) (map phi (trees G h X))) tweight.
Proof. exact (tmap_sub_sum S G G' phi psi hb X (phi_all X) hb_mono h xs). Qed.

(* and W G' h X xs is a sum over a duplicate-free sub-list of the trees of G of height <= h *)
Theorem W'_sub_sum h X xs :
  X < fresh ->
  NoDup (map psi (trees G' h X)) /\
  incl (map psi (trees G' h X)) (trees G h X) /\
  W G' h X xs = bsum (filter (yields xs) (map psi (trees G' h X))) tweight.
Proof.
  intros HX. exact (tmap_sub_sum S G' G psi phi (fun h => h) X (psi_all X HX) bound_id_mono h xs).
Qed.

(* consequence: the height-bounded sums sandwich each other, tree by tree:
   the trees of G' of height <= h map one-to-one (by psi) into those of G of height <= h,
   which map one-to-one (by phi) into those of G' of height <= hb h; psi and phi are
   mutually inverse, so on trees of height <= h the composite is the identity *)
Theorem trees_sandwich h X t' :
  X < fresh -> In t' (trees G' h X) ->
  In (psi t') (trees G h X) /\ In (phi (psi t')) (trees G' (hb h) X) /\ phi (psi t') = t'.
Proof.
  intros HX Hin.
  pose proof (tmap_trees S G' G psi phi (fun h => h) X (psi_all X HX) bound_id_mono h t' Hin) as H1.
  split; [exact H1|]. split; [exact (tmap_trees S G G' phi psi hb X (phi_all X) hb_mono h _ H1)|].
  apply (psi_all X HX). exact (proj1 (trees_sound S G' h X t' Hin)).
Qed.

End BinTree.

(* a concrete instance over the natural numbers: one rule 0 -> a1 a2 a3 a4 of weight 7
   preceded by a binary rule, fresh = 5 *)
Example phi_example :
  let r0 : rule NSR := (3%N, 1%nat, [T 1; T 2]) in
  let r1 : rule NSR := (7%N, O, [T 1; T 2; T 3; T 4]) in
  let f5 : rule NSR := (1%N, 5%nat, [T 1; T 2]) in
  let f6 : rule NSR := (1%N, 6%nat, [N 5; T 3]) in
  let r1' : rule NSR := (7%N, O, [N 6; T 4]) in
  let G : grammar NSR := [r0; r1] in
  let t : tree NSR :=
    Node 1 r1 (Fcons (Leaf 1) (Fcons (Leaf 2) (Fcons (Leaf 3) (Fcons (Leaf 4) Fnil)))) in
  let t' : tree NSR :=
    Node 3 r1' (Fcons (Node 2 f6 (Fcons (Node 1 f5 (Fcons (Leaf 1) (Fcons (Leaf 2) Fnil)))
                                        (Fcons (Leaf 3) Fnil)))
                      (Fcons (Leaf 4) Fnil)) in
  binarize 5 G = [r0; f5; f6; r1'] /\ phi NSR 5 G t = t' /\ psi NSR 5 G t' = t.
Proof. repeat split. Qed.

Print Assumptions phis_facts.
Print Assumptions invented_tree_shape.
Print Assumptions trees_phi_onto.
Print Assumptions trees_psi_onto.
Print Assumptions W_sub_sum.
Print Assumptions W'_sub_sum.
Print Assumptions trees_sandwich.
