(* The block solvers of WeightedGraph (solve_left / solve_right) compute a fixpoint
   of x = x A + b  (resp. x = A x + b) whenever the blocks partition the nodes,
   edges only go forward in the block order, and every block closure satisfies
   its own fixpoint equation; and soundness of the block-decomposition checker
   [scc_check].  [solve_left_block] (model/Linear.v) is one round of the loop over self.Blocks in
   WeightedGraph.solve_left. *)
From Coq Require Import List Arith Bool Lia Permutation.
From GV.lib Require Import Semiring BigSum.
From GV.model Require Import Linear Blocks.
From GV.proofs Require Import Closure LehmannProof ClosureExtra.
Import ListNotations.
Local Open Scope sr_scope.

Lemma memn_In x l : memn x l = true <-> In x l.
Proof. apply mem_spec. Qed.

Lemma memn_false x l : memn x l = false <-> ~ In x l.
Proof. apply mem_false. Qed.

Lemma forallb_In {X} (f : X -> bool) l x : forallb f l = true -> In x l -> f x = true.
Proof. intros H. exact (proj1 (forallb_forall f l) H x). Qed.

Lemma nodupb_NoDup l : nodupb l = true <-> NoDup l.
Proof.
  induction l as [|x t IH]; simpl.
  - split; [intros _; constructor|reflexivity].
  - rewrite andb_true_iff, negb_true_iff, memn_false, IH. split.
    + intros [H1 H2]; constructor; assumption.
    + intros H; inversion H; subst; split; assumption.
Qed.

Lemma NoDup_app_inv {X} (l1 l2 : list X) : NoDup (l1 ++ l2) ->
  NoDup l1 /\ NoDup l2 /\ forall x, In x l1 -> In x l2 -> False.
Proof.
  induction l1 as [|a t IH]; simpl; intros Hnd.
  - repeat split; [constructor|exact Hnd|intros x []].
  - inversion Hnd as [|? ? Hn Hd]; subst. destruct (IH Hd) as [H1 [H2 H3]]. repeat split.
    + constructor; [intro H; apply Hn, in_or_app; left; exact H|exact H1].
    + exact H2.
    + intros x [<-|Hx] Hx2; [apply Hn, in_or_app; right; exact Hx2|exact (H3 x Hx Hx2)].
Qed.

Lemma NoDup_concat_block {X} (bs : list (list X)) b :
  NoDup (concat bs) -> In b bs -> NoDup b.
Proof.
  intros Hnd Hb. apply in_split in Hb as [l1 [l2 ->]].
  rewrite concat_app, concat_cons in Hnd.
  apply NoDup_app_inv in Hnd as [_ [Hnd _]].
  apply NoDup_app_inv in Hnd. apply Hnd.
Qed.

Lemma concat_rev_perm {X} (l : list (list X)) : Permutation (concat (rev l)) (concat l).
Proof.
  induction l as [|a t IH]; simpl; [constructor|].
  rewrite concat_app. simpl. rewrite app_nil_r.
  apply Permutation_trans with (a ++ concat (rev t)).
  - apply Permutation_app_comm.
  - apply Permutation_app_head; exact IH.
Qed.

Lemma In_concat_rev {X} (l : list (list X)) x : In x (concat (rev l)) <-> In x (concat l).
Proof.
  split; apply Permutation_in; [|apply Permutation_sym]; apply concat_rev_perm.
Qed.

(* block indices: members of a prefix d of the block list come before everything else *)
Lemma block_of_ge x bs : forall n p, block_of x bs n = Some p -> n <= p.
Proof.
  induction bs as [|b t IH]; simpl; intros n p H; [discriminate H|].
  destruct (memn x b); [injection H as <-; lia|]. apply IH in H. lia.
Qed.

Lemma block_of_app_in x d r : forall n, In x (concat d) ->
  exists p, block_of x (d ++ r) n = Some p /\ p < n + length d.
Proof.
  induction d as [|a d IH]; simpl; intros n Hx; [destruct Hx|].
  destruct (memn x a) eqn:E.
  - exists n. split; [reflexivity|lia].
  - apply in_app_or in Hx as [Hx|Hx]; [apply memn_In in Hx; congruence|].
    destruct (IH (Datatypes.S n) Hx) as [p [Hp Hlt]]. exists p. split; [exact Hp|lia].
Qed.

Lemma block_of_app_notin x d r : forall n, ~ In x (concat d) ->
  block_of x (d ++ r) n = block_of x r (n + length d)%nat.
Proof.
  induction d as [|a d IH]; simpl; intros n Hn.
  - f_equal; lia.
  - destruct (memn x a) eqn:E.
    + apply memn_In in E. exfalso; apply Hn, in_or_app; left; exact E.
    + rewrite IH.
      * f_equal; lia.
      * intro H; apply Hn, in_or_app; right; exact H.
Qed.

Lemma is_partition_spec nodes bs : is_partition nodes bs = true ->
  NoDup (concat bs) /\ (forall x, In x nodes -> In x (concat bs)) /\
  (forall x, In x (concat bs) -> In x nodes).
Proof.
  unfold is_partition. intros H.
  apply andb_prop in H as [H _]. apply andb_prop in H as [H H3]. apply andb_prop in H as [H1 H2].
  split; [|split].
  - apply nodupb_NoDup; exact H1.
  - intros x Hx. apply memn_In. exact (forallb_In _ _ x H2 Hx).
  - intros x Hx. apply memn_In. exact (forallb_In _ _ x H3 Hx).
Qed.

Section BlockSolver.
Variable S : StarSR.
Add Ring SRingBS : (sth S).

Lemma forward_edges_spec nodes bs (A : mat S) : forward_edges nodes bs A = true ->
  forall i k, In i nodes -> In k nodes -> mget A i k <> 0 ->
  exists p q, block_of i bs O = Some p /\ block_of k bs O = Some q /\ p <= q.
Proof.
  unfold forward_edges. intros H i k Hi Hk Hne.
  apply forallb_In with (x := i) in H; [|exact Hi].
  apply forallb_In with (x := k) in H; [|exact Hk].
  unfold nonzero in H. destruct (seqb_reflect S (mget A i k) 0) as [E|_]; [contradiction|].
  cbn [negb] in H.
  destruct (block_of i bs O) as [p|]; [|discriminate H].
  destruct (block_of k bs O) as [q|]; [|discriminate H].
  exists p, q. split; [reflexivity|]. split; [reflexivity|].
  apply Nat.leb_le; exact H.
Qed.

(* no edge from a later block to an earlier one *)
Lemma forward_order nodes bs (A : mat S) :
  NoDup (concat bs) -> (forall x, In x (concat bs) -> In x nodes) ->
  forward_edges nodes bs A = true ->
  forall d r, bs = d ++ r ->
  forall i k, In i (concat r) -> In k (concat d) -> mget A i k = 0.
Proof.
  intros Hnd Hsub Hfw d r -> i k Hi Hk.
  destruct (seqb_reflect S (mget A i k) 0) as [Ez|Hne]; [exact Ez|exfalso].
  rewrite concat_app in Hnd, Hsub.
  destruct (forward_edges_spec nodes _ A Hfw i k) as [p [q [Hp [Hq Hle]]]];
    [apply Hsub, in_or_app; right; exact Hi|apply Hsub, in_or_app; left; exact Hk|exact Hne|].
  destruct (block_of_app_in k d r O Hk) as [q' [Hq' Hlt]].
  rewrite block_of_app_notin in Hp
    by (intro Hd; apply NoDup_app_inv in Hnd; exact (proj2 (proj2 Hnd) i Hd Hi)).
  apply block_of_ge in Hp. rewrite Hq in Hq'. injection Hq' as <-. lia.
Qed.

Lemma vget_app (u v : vec S) k : vget (u ++ v) k = vget u k + vget v k.
Proof. unfold vget. apply bsum_app. Qed.

Lemma vget_nil k : vget ([] : vec S) k = 0.
Proof. reflexivity. Qed.

Lemma bsum_memn (l m : list nat) (g : nat -> S) :
  NoDup l -> NoDup m -> incl m l ->
  bsum l (fun i => if memn i m then g i else 0) = bsum m g.
Proof.
  intros Hl Hm Hinc. rewrite <- bsum_filter. apply bsum_perm.
  apply NoDup_Permutation; [apply NoDup_filter; exact Hl|exact Hm|].
  intros x. split; intros H.
  - apply filter_In in H. apply memn_In, H.
  - apply filter_In. split; [apply Hinc, H|apply memn_In, H].
Qed.

Lemma vget_block (blk : list nat) (enter : list (nat * S)) (g : nat * S -> nat -> S) k :
  NoDup blk ->
  vget (flat_map (fun en => map (fun k' => (k', g en k')) blk) enter) k
  = if memn k blk then bsum enter (fun en => g en k) else 0.
Proof.
  intros Hnd. unfold vget. rewrite bsum_flat_map.
  transitivity (bsum enter (fun en => if memn k blk then g en k else 0)).
  - apply bsum_ext; intros en _. rewrite bsum_map. simpl.
    apply (bsum_delta_nat S blk k (g en)); exact Hnd.
  - destruct (memn k blk); [reflexivity|apply bsum_const_zero].
Qed.

(* x_k = sum_j e_j K_jk solves x = e + x A_bb when K = I + K A_bb *)
Lemma block_alg (blk : list nat) (e : nat -> S) (Kb a : nat -> nat -> S) :
  NoDup blk ->
  (forall j k, In j blk -> In k blk ->
     Kb j k = fid j k + bsum blk (fun l => Kb j l * a l k)) ->
  forall k, In k blk ->
    bsum blk (fun j => e j * Kb j k)
    = e k + bsum blk (fun l => bsum blk (fun j => e j * Kb j l) * a l k).
Proof.
  intros Hnd HK k Hk.
  rewrite (bsum_ext S blk _ (fun j => e j * fid j k
                                      + bsum blk (fun l => e j * (Kb j l * a l k)))).
  2:{ intros j Hj. rewrite (HK j k Hj Hk), bsum_mul_l. ring. }
  rewrite bsum_add, bsum_fid by assumption.
  rewrite bsum_swap. f_equal.
  apply bsum_ext; intros l _. rewrite <- bsum_mul_r.
  apply bsum_ext; intros j _. ring.
Qed.

(* Both solvers are one loop over the blocks: [step] adds to the solution, on the block, what
   enters it (b plus the contribution of the earlier blocks through [a]) carried through the
   block closure [K].  solve_right is the same loop on the transposed matrix with the blocks
   in reverse order.  [Hzero]: no edge from a later block back to an earlier one. *)
Section Generic.
Variables (allnodes : list nat) (b : vec S) (a : nat -> nat -> S)
          (K : list nat -> nat -> nat -> S) (step : vec S -> list nat -> vec S)
          (order : list (list nat)).
Hypothesis Hnd : NoDup allnodes.
Hypothesis step_spec : forall sol blk k, NoDup blk ->
  vget (step sol blk) k
  = vget sol k + (if memn k blk
                  then bsum blk (fun j => (vget b j + bsum allnodes (fun i => vget sol i * a i j)) * K blk j k)
                  else 0).
Hypothesis Hnd_order : NoDup (concat order).
Hypothesis Hsub : forall x, In x (concat order) -> In x allnodes.
Hypothesis HK : forall blk, In blk order -> forall j k, In j blk -> In k blk ->
  K blk j k = fid j k + bsum blk (fun l => K blk j l * a l k).
Hypothesis Hzero : forall d r, order = d ++ r ->
  forall i k, In i (concat r) -> In k (concat d) -> a i k = 0.

(* after the blocks [done]: zero outside them, the equation on them *)
Definition Inv (done : list (list nat)) (sol : vec S) : Prop :=
  (forall k, ~ In k (concat done) -> vget sol k = 0) /\
  (forall k, In k (concat done) ->
     vget sol k = vget b k + bsum allnodes (fun i => vget sol i * a i k)).

Lemma inv_step done blk todo sol :
  order = done ++ blk :: todo -> Inv done sol -> Inv (done ++ [blk]) (step sol blk).
Proof.
  intros E [Ha Hb].
  assert (Hin : In blk order) by (rewrite E; apply in_elt).
  assert (Hnb : NoDup blk) by (apply (NoDup_concat_block order); assumption).
  assert (Hdisj : forall x, In x (concat done) -> In x blk -> False).
  { intros x Hd Hx. rewrite E, concat_app, concat_cons in Hnd_order.
    apply NoDup_app_inv in Hnd_order. apply (proj2 (proj2 Hnd_order) x Hd).
    apply in_or_app; left; exact Hx. }
  assert (Hinc : incl blk allnodes).
  { intros x Hx. apply Hsub. apply in_concat. exists blk; split; assumption. }
  assert (Hcc : forall k, In k (concat (done ++ [blk])) <-> In k (concat done) \/ In k blk).
  { intros k. rewrite concat_app. simpl. rewrite app_nil_r. apply in_app_iff. }
  set (enter := fun j => vget b j + bsum allnodes (fun i => vget sol i * a i j)).
  set (x := fun k => bsum blk (fun j => enter j * K blk j k)).
  assert (Hstep : forall k, vget (step sol blk) k = vget sol k + (if memn k blk then x k else 0)).
  { intros k. apply step_spec, Hnb. }
  (* the new solution seen from k: the old one plus the contribution of the block *)
  assert (Hsum : forall k, bsum allnodes (fun i => vget (step sol blk) i * a i k)
                           = bsum allnodes (fun i => vget sol i * a i k) + bsum blk (fun i => x i * a i k)).
  { intros k. rewrite <- (bsum_memn allnodes blk (fun i => x i * a i k)), <- bsum_add by assumption.
    apply bsum_ext; intros i _. rewrite Hstep, <- smul_if_l. ring. }
  split; intros k Hk; rewrite Hstep.
  - rewrite (proj2 (memn_false k blk)), Ha by (intro H; apply Hk, Hcc; auto). apply sadd_0_l.
  - rewrite Hsum. apply Hcc in Hk. destruct Hk as [Hk|Hk].
    + (* k in an earlier block: the block does not reach back to k *)
      rewrite (proj2 (memn_false k blk)), (Hb k Hk) by (intro H; exact (Hdisj k Hk H)).
      rewrite (bsum_zero S blk), !sadd_0_r; [reflexivity|].
      intros i Hi. rewrite (Hzero done (blk :: todo) E i k); [apply smul_0_r| |exact Hk].
      simpl. apply in_or_app; left; exact Hi.
    + (* k in the current block *)
      rewrite (proj2 (memn_In k blk) Hk), Ha by (intro H; exact (Hdisj k H Hk)).
      unfold x at 1.
      rewrite (block_alg blk enter (K blk) a Hnb (HK blk Hin) k Hk).
      subst x enter. cbv beta. ring.
Qed.

Lemma inv_fold : forall todo done sol,
  order = done ++ todo -> Inv done sol -> Inv (done ++ todo) (fold_left step todo sol).
Proof.
  induction todo as [|blk todo IH]; intros done sol E HI; simpl.
  - rewrite app_nil_r. exact HI.
  - replace (done ++ blk :: todo) with ((done ++ [blk]) ++ todo)
      by (rewrite <- app_assoc; reflexivity).
    apply IH.
    + rewrite <- app_assoc. exact E.
    + apply (inv_step done blk todo); assumption.
Qed.

Lemma generic_fixpoint : forall k, In k (concat order) ->
  vget (fold_left step order []) k
  = vget b k + bsum allnodes (fun i => vget (fold_left step order []) i * a i k).
Proof.
  intros k Hk. refine (proj2 (inv_fold order [] [] eq_refl _) k Hk).
  split; [intros k' _; apply vget_nil|intros k' []].
Qed.

End Generic.

Lemma solve_left_block_spec allnodes (A : mat S) (b sol : vec S) blk k : NoDup blk ->
  vget (solve_left_block S allnodes A b sol blk) k
  = vget sol k + (if memn k blk
                  then bsum blk (fun j => (vget b j + bsum allnodes (fun i => vget sol i * mget A i j))
                                          * mget (block_closure blk A) j k)
                  else 0).
Proof.
  intros Hnb. unfold solve_left_block. cbv zeta. rewrite vget_app. apply f_equal.
  rewrite (vget_block blk _ (fun e k' => snd e * mget (block_closure blk A) (fst e) k') k Hnb).
  destruct (memn k blk); [|reflexivity].
  rewrite bsum_map. reflexivity.
Qed.

Theorem solve_left_fixpoint : forall (allnodes : list nat) (blocks : list (list nat)) (A : mat S) (b : vec S),
  NoDup allnodes ->
  is_partition allnodes blocks = true ->
  forward_edges allnodes blocks A = true ->
  (forall blk, In blk blocks -> forall i k, In i blk -> In k blk ->
     mget (block_closure blk A) i k
     = fid i k + bsum blk (fun j => mget (block_closure blk A) i j * mget A j k)) ->
  (forall i k, ~ In i allnodes \/ ~ In k allnodes -> mget A i k = 0) ->
  forall k, In k allnodes ->
    vget (solve_left allnodes blocks A b) k
    = vget b k + bsum allnodes (fun i => vget (solve_left allnodes blocks A b) i * mget A i k).
Proof.
  intros allnodes blocks A b Hnd Hpart Hfw HK _ k Hk.
  destruct (is_partition_spec allnodes blocks Hpart) as [Hndc [Hcov Hsub]].
  unfold solve_left.
  apply (generic_fixpoint allnodes b (mget A) (fun blk => mget (block_closure blk A))
           (solve_left_block S allnodes A b) blocks Hnd).
  - intros sol blk k' Hnb. apply solve_left_block_spec; exact Hnb.
  - exact Hndc.
  - exact Hsub.
  - exact HK.
  - exact (forward_order allnodes blocks A Hndc Hsub Hfw).
  - apply Hcov; exact Hk.
Qed.

Lemma solve_right_block_spec allnodes (A : mat S) (b sol : vec S) blk k : NoDup blk ->
  vget (solve_right_block S allnodes A b sol blk) k
  = vget sol k + (if memn k blk
                  then bsum blk (fun j => (vget b j + bsum allnodes (fun i => vget sol i * mget A j i))
                                          * mget (block_closure blk A) k j)
                  else 0).
Proof.
  intros Hnb. unfold solve_right_block. cbv zeta. rewrite vget_app. apply f_equal.
  rewrite (vget_block blk _ (fun e k' => mget (block_closure blk A) k' (fst e) * snd e) k Hnb).
  destruct (memn k blk); [|reflexivity].
  rewrite bsum_map. apply bsum_ext; intros j _. simpl.
  rewrite (bsum_ext S allnodes (fun i => vget sol i * mget A j i)
             (fun i => mget A j i * vget sol i)) by (intros; apply smul_comm).
  apply smul_comm.
Qed.

Theorem solve_right_fixpoint : forall (allnodes : list nat) (blocks : list (list nat)) (A : mat S) (b : vec S),
  NoDup allnodes ->
  is_partition allnodes blocks = true ->
  forward_edges allnodes blocks A = true ->
  (forall blk, In blk blocks -> forall i k, In i blk -> In k blk ->
     mget (block_closure blk A) i k
     = fid i k + bsum blk (fun j => mget A i j * mget (block_closure blk A) j k)) ->
  (forall i k, ~ In i allnodes \/ ~ In k allnodes -> mget A i k = 0) ->
  forall k, In k allnodes ->
    vget (solve_right allnodes blocks A b) k
    = vget b k + bsum allnodes (fun i => mget A k i * vget (solve_right allnodes blocks A b) i).
Proof.
  intros allnodes blocks A b Hnd Hpart Hfw HK _ k Hk.
  destruct (is_partition_spec allnodes blocks Hpart) as [Hndc [Hcov Hsub]].
  unfold solve_right.
  rewrite (bsum_ext S allnodes _
             (fun i => vget (fold_left (solve_right_block S allnodes A b) (rev blocks) []) i
                       * mget A k i)) by (intros; apply smul_comm).
  apply (generic_fixpoint allnodes b (fun i k' => mget A k' i)
           (fun blk j k' => mget (block_closure blk A) k' j)
           (solve_right_block S allnodes A b) (rev blocks) Hnd).
  - intros sol blk k' Hnb. apply solve_right_block_spec; exact Hnb.
  - apply (Permutation_NoDup (l := concat blocks)); [|exact Hndc].
    apply Permutation_sym, concat_rev_perm.
  - intros x Hx. apply Hsub. apply In_concat_rev; exact Hx.
  - intros blk Hblk j k' Hj Hk'. apply in_rev in Hblk.
    rewrite (HK blk Hblk k' j Hk' Hj).
    unfold fid. rewrite (Nat.eqb_sym k' j). f_equal.
    apply bsum_ext; intros l _. apply smul_comm.
  - intros d r E i k' Hi Hk'.
    (* blocks = rev r ++ rev d : k' lies in a later block than i *)
    apply (forward_order allnodes blocks A Hndc Hsub Hfw (rev r) (rev d));
      [|apply In_concat_rev; exact Hk'|apply In_concat_rev; exact Hi].
    rewrite <- (rev_involutive blocks), E. apply rev_app_distr.
  - apply In_concat_rev. apply Hcov; exact Hk.
Qed.

Theorem scc_check_sound : forall (nodes : list nat) (bs : list (list nat)) (A : mat S),
  NoDup nodes -> scc_check nodes bs A = true ->
  (forall x, In x nodes <-> exists b, In b bs /\ In x b) /\
  NoDup (concat bs) /\
  (forall i k p q, In i nodes -> In k nodes -> mget A i k <> 0 ->
     block_of i bs O = Some p -> block_of k bs O = Some q -> p <= q) /\
  (forall b i k, In b bs -> In i b -> In k b -> reachN b (adj_bool b A) i k).
Proof.
  intros nodes bs A Hnd Hchk. unfold scc_check in Hchk.
  apply andb_prop in Hchk as [Hchk Hsc]. apply andb_prop in Hchk as [Hpart Hfw].
  destruct (is_partition_spec nodes bs Hpart) as [Hndc [Hcov Hsub]].
  split; [|split; [|split]].
  - intros x. split; intros Hx; [apply in_concat, Hcov, Hx|apply Hsub, in_concat, Hx].
  - exact Hndc.
  - intros i k p q Hi Hk Hne Hp Hq.
    destruct (forward_edges_spec nodes bs A Hfw i k Hi Hk Hne) as [p' [q' [Hp' [Hq' Hle]]]].
    rewrite Hp in Hp'. rewrite Hq in Hq'. injection Hp' as <-. injection Hq' as <-. exact Hle.
  - intros blk i k Hblk Hi Hk.
    apply forallb_In with (x := blk) in Hsc; [|exact Hblk].
    unfold strongly_connected in Hsc.
    apply forallb_In with (x := i) in Hsc; [|exact Hi].
    apply forallb_In with (x := k) in Hsc; [|exact Hk].
    apply lehmann_bool_sound; try assumption.
    apply (NoDup_concat_block bs); assumption.
Qed.

End BlockSolver.

Print Assumptions solve_left_fixpoint.
Print Assumptions scc_check_sound.
Print Assumptions solve_right_fixpoint.
