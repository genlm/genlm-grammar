(* Folding preserves the solutions of the grammar's equation system.
   A solution of G (solves) is a valuation f with  f X xs = gstep G f X xs  for all X, xs; the
   file starts with the general facts about solves and gstep that the other equation-level
   files use.  For separate_terminals, for one fold step (fold_at: X -> y1 y2 rest  becomes
   F -> y1 y2 of weight one and  X -> F rest) and for binarize, the solutions of G and of the
   transformed grammar correspond: a solution of the new grammar restricts to one of G on the
   old names (_restrict), a solution of G extends to the new names (_extend).
   binarize is the fold step iterated, one rule at a time (binz); every fact about it is an
   induction over these steps. *)
From Coq Require Import List Arith Lia.
From GV.lib Require Import Semiring BigSum.
From GV.model Require Import Cfg Transform2.
From GV.proofs Require Import UnfoldProofs CkyProofs ShapeProofs.
From GV.proofs Require SepTermProofs.
Import ListNotations.
Local Open Scope sr_scope.

(* the first element of l named Z by g: the lookup of the extended valuations *)
Section FindNamed.
Context {A : Type} (g : A -> nat) (l : list A).

Inductive find_named_spec (Z : nat) : option A -> Prop :=
| FoundNamed t : In t l -> g t = Z -> find_named_spec Z (Some t)
| NoneNamed : (forall t, In t l -> g t <> Z) -> find_named_spec Z None.

Lemma find_namedP Z : find_named_spec Z (find (fun t => Nat.eqb (g t) Z) l).
Proof.
  destruct (find (fun t => Nat.eqb (g t) Z) l) as [t|] eqn:E.
  - apply find_some in E. destruct E as [Hin E]. apply Nat.eqb_eq in E. constructor; assumption.
  - constructor. intros t Hin Eg. pose proof (find_none _ _ E t Hin) as H. cbv beta in H.
    rewrite Eg, Nat.eqb_refl in H. discriminate H.
Qed.
End FindNamed.

Section FoldProofs.
Variable S : SR.
Add Ring FoldRing : (sth S).

Local Notation Sn := Datatypes.S.

Definition solves (G : grammar S) (f : nat -> list nat -> S) : Prop :=
  forall X xs, f X xs = gstep S G f X xs.

Lemma gstep_app (G1 G2 : grammar S) f X xs :
  gstep S (G1 ++ G2) f X xs = gstep S G1 f X xs + gstep S G2 f X xs.
Proof. unfold gstep. apply bsum_app. Qed.

Lemma gstep_cons (r : rule S) (G : grammar S) f X xs :
  gstep S (r :: G) f X xs = term S f X xs r + gstep S G f X xs.
Proof. reflexivity. Qed.

Lemma gstep_nil f X xs : gstep S [] f X xs = 0.
Proof. reflexivity. Qed.

Lemma term_other f X xs (r : rule S) : rhead r <> X -> term S f X xs r = 0.
Proof. intros H. unfold term. rewrite (proj2 (Nat.eqb_neq _ _) H). reflexivity. Qed.

Lemma gstep_nohead (G : grammar S) f X xs :
  (forall r, In r G -> rhead r <> X) -> gstep S G f X xs = 0.
Proof. exact (bsum_head_zero S G X _). Qed.

Lemma solves_nohead (G : grammar S) h Z xs :
  solves G h -> (forall r, In r G -> rhead r <> Z) -> h Z xs = 0.
Proof. intros Hs Hn. rewrite (Hs Z xs). apply gstep_nohead. exact Hn. Qed.

Lemma stationary_solves (G : grammar S) h :
  (forall X xs, W G (Sn h) X xs = W G h X xs) -> solves G (W G h).
Proof. intros Hst X xs. rewrite <- W_succ_gstep. symmetry. apply Hst. Qed.

Lemma gstep_ext_in (G : grammar S) f g X xs :
  (forall r Y ys, In r G -> In (N Y) (rbody r) -> f Y ys = g Y ys) ->
  gstep S G f X xs = gstep S G g X xs.
Proof.
  intros Hfg. unfold gstep. apply bsum_ext. intros r Hr.
  destruct (Nat.eqb (rhead r) X); [|reflexivity].
  f_equal. apply Wb_ext_in. intros Y ys HY. exact (Hfg r Y ys Hr HY).
Qed.

(* the equation of a nonterminal, summed against a kernel k over a list of words *)
Lemma bsum_gstep (G : grammar S) f X (l : list (list nat)) (k : list nat -> S) :
  bsum l (fun xs => gstep S G f X xs * k xs)
  = bsum G (fun r => if Nat.eqb (rhead r) X
                     then rw r * bsum l (fun xs => Wb f (rbody r) xs * k xs) else 0).
Proof.
  unfold gstep.
  rewrite (bsum_ext S l _ (fun xs => bsum G (fun r =>
             (if Nat.eqb (rhead r) X then rw r * Wb f (rbody r) xs else 0) * k xs)))
    by (intros xs _; symmetry; apply bsum_mul_r).
  rewrite bsum_swap. apply bsum_ext; intros r _. destruct (Nat.eqb (rhead r) X).
  - rewrite <- bsum_mul_l. apply bsum_ext; intros xs _. ring.
  - apply bsum_zero; intros xs _. ring.
Qed.

(* a valuation that satisfies F = y1 y2 folds the first two symbols of a body *)
Lemma Wb_fold (g : nat -> list nat -> S) F y1 y2 rest :
  (forall ys, g F ys = Wb g [y1; y2] ys) ->
  forall xs, Wb g (N F :: rest) xs = Wb g (y1 :: y2 :: rest) xs.
Proof.
  intros HF xs. change (y1 :: y2 :: rest) with ([y1; y2] ++ rest). rewrite Wb_app, Wb_N_unfold.
  apply bsum_ext; intros p _. rewrite HF. reflexivity.
Qed.

(* the weight function of a preterminal: [xs = [a]] *)
Definition delta (a : nat) (xs : list nat) : S :=
  match xs with [b] => if Nat.eqb a b then 1 else 0 | _ => 0 end.

Lemma splits_nilw_l (g : list nat -> S) t :
  bsum (splits t) (fun p => nilw S (fst p) * g (snd p)) = g t.
Proof. exact (Wbc_nil S (fun _ _ => 0) g t). Qed.

Lemma splits_delta a (g : list nat -> S) xs :
  bsum (splits xs) (fun p => delta a (fst p) * g (snd p))
  = match xs with b :: xs' => if Nat.eqb a b then g xs' else 0 | [] => 0 end.
Proof.
  transitivity (Wbc S (fun _ _ => 0) [T a] g xs).
  - apply bsum_ext. intros p _. rewrite Wb_T1. reflexivity.
  - rewrite Wbc_T. destruct xs as [|b xs']; [reflexivity|].
    destruct (Nat.eqb a b); [apply Wbc_nil|reflexivity].
Qed.

(* once the preterminals have their intended weights, replacing the terminals of a body
   by their preterminals does not change the body weight *)
Lemma Wb_sep (pt : nat -> nat) (f : nat -> list nat -> S) body :
  (forall a, In (T a) body -> forall ys, f (pt a) ys = delta a ys) ->
  forall xs, Wb f (map (sep_sym pt) body) xs = Wb f body xs.
Proof.
  induction body as [|[a|Y] rest IH]; intros Hpt xs.
  - reflexivity.
  - cbn [map sep_sym]. rewrite Wb_N_unfold.
    rewrite (bsum_ext S (splits xs) _ (fun p => delta a (fst p) * Wb f rest (snd p))).
    + apply splits_delta.
    + intros p _. rewrite (Hpt a (or_introl eq_refl)). rewrite IH; [reflexivity|].
      intros a' Ha'. apply Hpt. right; exact Ha'.
  - cbn [map sep_sym Wb]. apply bsum_ext; intros p _. rewrite IH; [reflexivity|].
    intros a' Ha'. apply Hpt. right; exact Ha'.
Qed.

(* the image of a rule and the rules of the preterminals are those of SepTermProofs *)
Lemma separate_terminals_eq pt (G : grammar S) :
  separate_terminals pt G = map (SepTermProofs.pre_rule S pt) (terminals_of G) ++ map (SepTermProofs.sep_rule S pt) G.
Proof. reflexivity. Qed.

Lemma sep_rule_Wb pt (G : grammar S) (g : nat -> list nat -> S) r xs :
  (forall a ys, In a (terminals_of G) -> g (pt a) ys = delta a ys) ->
  In r G -> Wb g (rbody (SepTermProofs.sep_rule S pt r)) xs = Wb g (rbody r) xs.
Proof.
  intros Hd Hr. destruct (SepTermProofs.is_unit (rbody r)) eqn:Eu.
  - rewrite (SepTermProofs.sep_rule_unit S pt r Eu). reflexivity.
  - rewrite (SepTermProofs.sep_rule_body_nonunit S pt r Eu). apply Wb_sep. intros a Ha ys. apply Hd.
    exact (SepTermProofs.TL_in S G r a Hr Eu Ha).
Qed.

Lemma gstep_sep_rules pt (G : grammar S) (g : nat -> list nat -> S) Z xs :
  (forall a ys, In a (terminals_of G) -> g (pt a) ys = delta a ys) ->
  gstep S (map (SepTermProofs.sep_rule S pt) G) g Z xs = gstep S G g Z xs.
Proof.
  intros Hd. unfold gstep. rewrite bsum_map. apply bsum_ext. intros r Hr.
  rewrite SepTermProofs.sep_rule_head, SepTermProofs.sep_rule_rw, (sep_rule_Wb pt G g r xs Hd Hr). reflexivity.
Qed.

Lemma gstep_map_nohead {A} (h : A -> rule S) (l : list A) g Z xs :
  (forall a, In a l -> rhead (h a) <> Z) -> gstep S (map h l) g Z xs = 0.
Proof.
  intros H. apply gstep_nohead. intros r Hr. apply in_map_iff in Hr.
  destruct Hr as [a [<- Ha]]. exact (H a Ha).
Qed.

(* among the preterminal rules only that of a has head pt a; its body weight is delta a *)
Lemma gstep_pt_rules_at pt (l : list nat) (g : nat -> list nat -> S) a xs :
  (forall p q, pt p = pt q -> p = q) -> NoDup l -> In a l ->
  gstep S (map (SepTermProofs.pre_rule S pt) l) g (pt a) xs = delta a xs.
Proof.
  intros Hinj Hnd Ha. unfold gstep. rewrite bsum_map.
  rewrite (bsum_single S l a _ Hnd Ha).
  - cbn [SepTermProofs.pre_rule rhead rw rbody fst snd]. rewrite Nat.eqb_refl, Wb_T1. apply smul_1_l.
  - intros a' _ Hne. cbn [SepTermProofs.pre_rule rhead fst snd].
    rewrite (proj2 (Nat.eqb_neq _ _) (fun E => Hne (Hinj _ _ E))). reflexivity.
Qed.

Lemma gstep_pt_rules_other pt (l : list nat) (g : nat -> list nat -> S) Z xs :
  (forall a, In a l -> Z <> pt a) -> gstep S (map (SepTermProofs.pre_rule S pt) l) g Z xs = 0.
Proof. intros HZ. apply gstep_map_nohead. intros a Ha E. exact (HZ a Ha (eq_sym E)). Qed.

Lemma sep_solution_pt pt (G : grammar S) f' :
  (forall p q, pt p = pt q -> p = q) ->
  (forall r a, In r G -> In a (terminals_of G) -> rhead r <> pt a) ->
  solves (separate_terminals pt G) f' ->
  forall a ys, In a (terminals_of G) -> f' (pt a) ys = delta a ys.
Proof.
  intros Hinj Hheads Hsol a ys Ha.
  rewrite (Hsol (pt a) ys), separate_terminals_eq, gstep_app.
  rewrite (gstep_pt_rules_at pt (terminals_of G) f' a ys Hinj (SepTermProofs.TL_NoDup S G) Ha).
  rewrite gstep_map_nohead; [apply sadd_0_r|].
  intros r Hr. rewrite SepTermProofs.sep_rule_head. exact (Hheads r a Hr Ha).
Qed.

Theorem separate_terminals_restrict :
  forall (pt : nat -> nat) (G : grammar S) (f' : nat -> list nat -> S),
    (forall p q, pt p = pt q -> p = q) ->
    (forall r a, In r G -> In a (terminals_of G) -> rhead r <> pt a) ->
    solves (separate_terminals pt G) f' ->
    (forall a ys, In a (terminals_of G) -> f' (pt a) ys = delta a ys) /\
    (forall Z xs, (forall a, In a (terminals_of G) -> Z <> pt a) -> f' Z xs = gstep S G f' Z xs).
Proof.
  intros pt G f' Hinj Hheads Hsol.
  pose proof (sep_solution_pt pt G f' Hinj Hheads Hsol) as Hd.
  split; [exact Hd|]. intros Z xs HZ.
  etransitivity; [exact (Hsol Z xs)|]. rewrite separate_terminals_eq, gstep_app.
  rewrite (gstep_pt_rules_other pt _ f' Z xs HZ).
  rewrite (gstep_sep_rules pt G f' Z xs Hd). apply sadd_0_l.
Qed.

(* the extension of a valuation to the preterminals *)
Definition sep_ext (pt : nat -> nat) (G : grammar S) (f : nat -> list nat -> S) : nat -> list nat -> S :=
  fun Z xs => match find (fun a => Nat.eqb (pt a) Z) (terminals_of G) with
              | Some a => delta a xs
              | None => f Z xs
              end.

Lemma sep_ext_pt pt (G : grammar S) f a ys :
  (forall p q, pt p = pt q -> p = q) -> In a (terminals_of G) -> sep_ext pt G f (pt a) ys = delta a ys.
Proof.
  intros Hinj Ha. unfold sep_ext.
  destruct (find_namedP pt (terminals_of G) (pt a)) as [a' _ E|Hn].
  - apply Hinj in E. subst a'. reflexivity.
  - destruct (Hn a Ha eq_refl).
Qed.

Lemma sep_ext_other pt (G : grammar S) f Z ys :
  (forall a, In a (terminals_of G) -> Z <> pt a) -> sep_ext pt G f Z ys = f Z ys.
Proof.
  intros HZ. unfold sep_ext.
  destruct (find_namedP pt (terminals_of G) Z) as [a' Ha E|_]; [destruct (HZ a' Ha (eq_sym E))|reflexivity].
Qed.

Theorem separate_terminals_extend :
  forall (pt : nat -> nat) (G : grammar S) (f : nat -> list nat -> S),
    (forall p q, pt p = pt q -> p = q) ->
    (forall r a, In r G -> In a (terminals_of G) -> rhead r <> pt a) ->
    (forall r a, In r G -> In a (terminals_of G) -> ~ In (N (pt a)) (rbody r)) ->
    solves G f ->
    solves (separate_terminals pt G) (sep_ext pt G f) /\
    (forall a ys, In a (terminals_of G) -> sep_ext pt G f (pt a) ys = delta a ys) /\
    (forall Z ys, (forall a, In a (terminals_of G) -> Z <> pt a) -> sep_ext pt G f Z ys = f Z ys).
Proof.
  intros pt G f Hinj Hheads Hbodies Hsol.
  assert (Hd : forall a ys, In a (terminals_of G) -> sep_ext pt G f (pt a) ys = delta a ys).
  { intros a ys Ha. apply sep_ext_pt; assumption. }
  split; [|split; [exact Hd|intros Z ys HZ; apply sep_ext_other; exact HZ]].
  intros Z xs. rewrite separate_terminals_eq, gstep_app.
  rewrite (gstep_sep_rules pt G _ Z xs Hd).
  destruct (find_namedP pt (terminals_of G) Z) as [a Ha <-|HZ'].
  - rewrite (Hd a xs Ha).
    rewrite (gstep_pt_rules_at pt (terminals_of G) _ a xs Hinj (SepTermProofs.TL_NoDup S G) Ha).
    rewrite gstep_nohead; [symmetry; apply sadd_0_r|]. intros r Hr. exact (Hheads r a Hr Ha).
  - assert (HZ : forall a, In a (terminals_of G) -> Z <> pt a)
      by (intros a Ha E; exact (HZ' a Ha (eq_sym E))).
    rewrite (sep_ext_other pt G f Z xs HZ).
    rewrite (gstep_pt_rules_other pt _ _ Z xs HZ).
    etransitivity; [exact (Hsol Z xs)|].
    rewrite (gstep_ext_in G f (sep_ext pt G f) Z xs); [symmetry; apply sadd_0_l|].
    intros r Y ys Hr HY. symmetry. apply sep_ext_other.
    intros a Ha EY. subst Y. exact (Hbodies r a Hr Ha HY).
Qed.

(* rule number i, X -> y1 y2 rest with weight w, is replaced in place by
   F -> y1 y2 (weight one) followed by X -> F rest (weight w), as bin_body does *)
Definition fold_at (i F : nat) (w : S) (X : nat) (y1 y2 : sym) (rest : list sym) (G : grammar S) : grammar S :=
  firstn i G ++ (1, F, [y1; y2]) :: (w, X, N F :: rest) :: skipn (Sn i) G.

Lemma fold_at_F i F w X y1 y2 rest (G : grammar S) (g : nat -> list nat -> S) xs :
  nth_error G i = Some (w, X, y1 :: y2 :: rest) ->
  (forall r, In r G -> rhead r <> F) ->
  gstep S (fold_at i F w X y1 y2 rest G) g F xs = Wb g [y1; y2] xs.
Proof.
  intros Hi Hheads. destruct (nth_error_split_eq G i _ Hi) as [E _].
  unfold fold_at. set (pre := firstn i G) in *. set (post := skipn (Sn i) G) in *.
  clearbody pre post. subst G.
  rewrite gstep_app, !gstep_cons, (gstep_nohead pre), (gstep_nohead post), (term_other g F xs (w, X, _)).
  - rewrite term_mk, Nat.eqb_refl, smul_1_l, sadd_0_l, !sadd_0_r. reflexivity.
  - apply (Hheads (w, X, y1 :: y2 :: rest)). apply in_or_app. right; left; reflexivity.
  - intros r Hr. apply Hheads. apply in_or_app. right; right; exact Hr.
  - intros r Hr. apply Hheads. apply in_or_app. left; exact Hr.
Qed.

Lemma fold_one_step i F w X y1 y2 rest (G : grammar S) (g : nat -> list nat -> S) :
  nth_error G i = Some (w, X, y1 :: y2 :: rest) ->
  (forall ys, g F ys = Wb g [y1; y2] ys) ->
  forall Z xs, Z <> F -> gstep S (fold_at i F w X y1 y2 rest G) g Z xs = gstep S G g Z xs.
Proof.
  intros Hi HF Z xs HZ. destruct (nth_error_split_eq G i _ Hi) as [E _].
  unfold fold_at. set (pre := firstn i G) in *. set (post := skipn (Sn i) G) in *.
  clearbody pre post. subst G.
  rewrite !gstep_app, !gstep_cons, (term_other g Z xs (1, F, _)) by (intros E; exact (HZ (eq_sym E))).
  rewrite !term_mk, (Wb_fold g F y1 y2 rest HF xs), sadd_0_l. reflexivity.
Qed.

Theorem fold_restrict :
  forall (G : grammar S) (i F : nat) (w : S) (X : nat) (y1 y2 : sym) (rest : list sym)
         (f' : nat -> list nat -> S),
    nth_error G i = Some (w, X, y1 :: y2 :: rest) ->
    (forall r, In r G -> rhead r <> F) ->
    solves (fold_at i F w X y1 y2 rest G) f' ->
    (forall ys, f' F ys = Wb f' [y1; y2] ys) /\
    (forall Z xs, Z <> F -> f' Z xs = gstep S G f' Z xs).
Proof.
  intros G i F w X y1 y2 rest f' Hi Hheads Hsol.
  assert (HF : forall ys, f' F ys = Wb f' [y1; y2] ys).
  { intros ys. etransitivity; [exact (Hsol F ys)|]. apply fold_at_F; assumption. }
  split; [exact HF|]. intros Z xs HZ.
  etransitivity; [exact (Hsol Z xs)|]. apply fold_one_step; assumption.
Qed.

Definition upd (f : nat -> list nat -> S) (k : nat) (v : list nat -> S) : nat -> list nat -> S :=
  fun Z xs => if Nat.eqb Z k then v xs else f Z xs.

Lemma upd_other f k v Z ys : Z <> k -> upd f k v Z ys = f Z ys.
Proof. intros H. unfold upd. rewrite (proj2 (Nat.eqb_neq Z k) H). reflexivity. Qed.

Lemma upd_same f k v ys : upd f k v k ys = v ys.
Proof. unfold upd. rewrite Nat.eqb_refl. reflexivity. Qed.

(* upd f F (Wb f [y1; y2]), written out: the value binz_ext gives to a new name *)
Definition fold_ext (F : nat) (y1 y2 : sym) (f : nat -> list nat -> S) : nat -> list nat -> S :=
  fun Z xs => if Nat.eqb Z F then Wb f [y1; y2] xs else f Z xs.

Theorem fold_extend :
  forall (G : grammar S) (i F : nat) (w : S) (X : nat) (y1 y2 : sym) (rest : list sym)
         (f : nat -> list nat -> S),
    nth_error G i = Some (w, X, y1 :: y2 :: rest) ->
    (forall r, In r G -> rhead r <> F) ->
    (forall r, In r G -> ~ In (N F) (rbody r)) ->
    solves G f ->
    solves (fold_at i F w X y1 y2 rest G) (fold_ext F y1 y2 f) /\
    (forall Z xs, Z <> F -> fold_ext F y1 y2 f Z xs = f Z xs).
Proof.
  intros G i F w X y1 y2 rest f Hi Hheads Hbodies Hsol.
  set (f' := fold_ext F y1 y2 f).
  assert (Hag : forall Z xs, Z <> F -> f' Z xs = f Z xs).
  { intros Z xs HZ. exact (upd_other f F (Wb f [y1; y2]) Z xs HZ). }
  split; [|exact Hag].
  assert (Hr : In (w, X, y1 :: y2 :: rest) G) by (apply (nth_error_In G i); exact Hi).
  assert (H12 : forall ys, Wb f' [y1; y2] ys = Wb f [y1; y2] ys).
  { apply Wb_ext_in. intros Y ys HY. apply Hag. intros EY. subst Y.
    apply (Hbodies _ Hr). cbn [rbody snd]. destruct HY as [HY|[HY|[]]]; [left|right; left]; exact HY. }
  assert (HF : forall ys, f' F ys = Wb f' [y1; y2] ys).
  { intros ys. rewrite H12. exact (upd_same f F (Wb f [y1; y2]) ys). }
  intros Z xs. destruct (Nat.eq_dec Z F) as [EZ|NZ].
  - subst Z. rewrite (fold_at_F i F w X y1 y2 rest G f' xs Hi Hheads). apply HF.
  - rewrite (fold_one_step i F w X y1 y2 rest G f' Hi HF Z xs NZ).
    rewrite (Hag Z xs NZ). etransitivity; [exact (Hsol Z xs)|].
    apply gstep_ext_in. intros r Y ys Hr' HY. symmetry. apply Hag.
    intros EY. subst Y. exact (Hbodies r Hr' HY).
Qed.

Lemma bin_body_base fuel fr (w : S) X body :
  fuel = O \/ length body <= 2 -> bin_body fuel fr w X body = ([(w, X, body)], fr).
Proof.
  intros [->|Hl]; [reflexivity|]. destruct fuel; [reflexivity|].
  destruct body as [|y1 [|y2 [|y3 rest]]]; try reflexivity. cbn [length] in Hl. lia.
Qed.

Lemma bin_body_step f fr (w : S) X y1 y2 y3 rest :
  bin_body (Sn f) fr w X (y1 :: y2 :: y3 :: rest)
  = ((1, fr, [y1; y2]) :: fst (bin_body f (Sn fr) w X (N fr :: y3 :: rest)),
     snd (bin_body f (Sn fr) w X (N fr :: y3 :: rest))).
Proof. cbn [bin_body]. destruct (bin_body f (Sn fr) w X (N fr :: y3 :: rest)). reflexivity. Qed.

Definition bb (fr : nat) (r : rule S) : list (rule S) * nat :=
  bin_body (length (rbody r)) fr (rw r) (rhead r) (rbody r).

Fixpoint binz (fr : nat) (G : grammar S) : grammar S * nat :=
  match G with
  | [] => ([], fr)
  | r :: t => (fst (bb fr r) ++ fst (binz (snd (bb fr r)) t), snd (binz (snd (bb fr r)) t))
  end.

Lemma fold_bstep_binz : forall (G : grammar S) out fr,
  fold_left (bstep S) G (out, fr) = (out ++ fst (binz fr G), snd (binz fr G)).
Proof.
  induction G as [|r t IH]; intros out fr.
  - cbn [fold_left binz fst snd]. rewrite app_nil_r. reflexivity.
  - cbn [fold_left]. rewrite bstep_eq. fold (bb fr r). rewrite IH. cbn [binz fst snd].
    rewrite app_assoc. reflexivity.
Qed.

Lemma binarize_binz fresh (G : grammar S) : binarize fresh G = fst (binz fresh G).
Proof. unfold binarize. rewrite binarize_from_fold, fold_bstep_binz. reflexivity. Qed.

(* binz does one fold step at a time: a rule with a short body is kept; from a longer one
   the rule of a new name fr is split off, and what is left is one symbol shorter, which
   is just the fuel that bb gives to it *)
Lemma binz_short fr (r : rule S) t :
  length (rbody r) <= 2 -> binz fr (r :: t) = (r :: fst (binz fr t), snd (binz fr t)).
Proof.
  intros Hl. cbn [binz]. unfold bb. rewrite bin_body_base by (right; exact Hl).
  rewrite rule_eta. reflexivity.
Qed.

Lemma binz_long fr (w : S) X y1 y2 y3 rest t :
  binz fr ((w, X, y1 :: y2 :: y3 :: rest) :: t)
  = ((1, fr, [y1; y2]) :: fst (binz (Sn fr) ((w, X, N fr :: y3 :: rest) :: t)),
     snd (binz (Sn fr) ((w, X, N fr :: y3 :: rest) :: t))).
Proof. cbn [binz]. unfold bb. cbn [rbody rw rhead fst snd length]. rewrite bin_body_step. reflexivity. Qed.

Lemma binz_ind' (P : nat -> grammar S -> Prop) :
  (forall fr, P fr []) ->
  (forall fr r t, length (rbody r) <= 2 -> P fr t -> P fr (r :: t)) ->
  (forall fr w X y1 y2 y3 rest t,
     P (Sn fr) ((w, X, N fr :: y3 :: rest) :: t) -> P fr ((w, X, y1 :: y2 :: y3 :: rest) :: t)) ->
  forall G fr, P fr G.
Proof.
  intros Hn Hs Hl. induction G as [|[[w X] body] t IH]; [exact Hn|].
  assert (H : forall n body fr, length body = n -> P fr ((w, X, body) :: t)).
  { induction n as [|n IHn]; intros b fr E; destruct b as [|y1 [|y2 [|y3 rest]]];
      try (apply Hs; [cbn [rbody snd length]; solve [repeat constructor]|apply IH]).
    - discriminate E.
    - apply Hl, IHn. injection E as <-. reflexivity. }
  intros fr. exact (H _ body fr eq_refl).
Qed.

(* a step of binz keeps the heads of the grammar *)
Lemma heads_step lo (w : S) X b b' t :
  (forall r0, In r0 ((w, X, b) :: t) -> rhead r0 < lo) ->
  forall r0, In r0 ((w, X, b') :: t) -> rhead r0 < lo.
Proof. intros Hh r0 [<-|H1]; [exact (Hh _ (or_introl eq_refl))|exact (Hh r0 (or_intror H1))]. Qed.

(* the heads of the binarized grammar are old ones, below lo, or invented ones, from fr on *)
Lemma binz_heads_lo lo : forall (G : grammar S) fr,
  (forall r0, In r0 G -> rhead r0 < lo) ->
  forall r, In r (fst (binz fr G)) -> rhead r < lo \/ fr <= rhead r.
Proof.
  apply (binz_ind' (fun fr G => (forall r0, In r0 G -> rhead r0 < lo) ->
    forall r, In r (fst (binz fr G)) -> rhead r < lo \/ fr <= rhead r)).
  - intros fr _ r [].
  - intros fr r0 t Hl IH Hh r. rewrite binz_short by exact Hl. cbn [fst]. intros [<-|Hr].
    + left. apply Hh. left. reflexivity.
    + apply (IH (fun r1 H1 => Hh r1 (or_intror H1)) r Hr).
  - intros fr w X y1 y2 y3 rest t IH Hh r. rewrite binz_long. cbn [fst]. intros [<-|Hr].
    + right. apply le_n.
    + destruct (IH (heads_step lo w X _ _ t Hh) r Hr) as [H|H]; [left; exact H|right; apply Nat.lt_le_incl; exact H].
Qed.

(* g satisfies the equations of the invented nonterminals *)
Definition inv_ok (lo : nat) (g : nat -> list nat -> S) (G' : grammar S) : Prop :=
  forall r, In r G' -> lo <= rhead r -> forall ys, g (rhead r) ys = Wb g (rbody r) ys.

Lemma binz_sum lo (g : nat -> list nat -> S) Z : Z < lo ->
  forall (G : grammar S) fr,
  (forall r0, In r0 G -> rhead r0 < lo) -> lo <= fr ->
  inv_ok lo g (fst (binz fr G)) ->
  forall xs, gstep S (fst (binz fr G)) g Z xs = gstep S G g Z xs.
Proof.
  intros HZ. apply (binz_ind' (fun fr G => (forall r0, In r0 G -> rhead r0 < lo) -> lo <= fr ->
    inv_ok lo g (fst (binz fr G)) -> forall xs, gstep S (fst (binz fr G)) g Z xs = gstep S G g Z xs)).
  - reflexivity.
  - intros fr r0 t Hl IH Hh Hlo. rewrite binz_short by exact Hl. cbn [fst]. intros Hinv xs.
    rewrite !gstep_cons, IH; [reflexivity| |exact Hlo|].
    + intros r1 H1. apply Hh. right; exact H1.
    + intros r Hr. apply Hinv. right; exact Hr.
  - intros fr w X y1 y2 y3 rest t IH Hh Hlo. rewrite binz_long. cbn [fst]. intros Hinv xs.
    assert (HF : forall ys, g fr ys = Wb g [y1; y2] ys)
      by (intros ys; exact (Hinv (1, fr, [y1; y2]) (or_introl eq_refl) Hlo ys)).
    rewrite gstep_cons, IH.
    + (* the new rule in front of the rest is fold_at at position 0 *)
      refine (fold_one_step 0 fr w X y1 y2 (y3 :: rest) (_ :: t) g eq_refl HF Z xs _). lia.
    + exact (heads_step lo w X _ _ t Hh).
    + lia.
    + intros r Hr. apply Hinv. right; exact Hr.
Qed.

(* each invented nonterminal has exactly one rule in the binarized grammar, of weight one *)
Lemma binz_inv lo (g : nat -> list nat -> S) :
  forall (G : grammar S) fr,
  (forall r0, In r0 G -> rhead r0 < lo) -> lo <= fr ->
  forall r, In r (fst (binz fr G)) -> lo <= rhead r ->
  forall ys, gstep S (fst (binz fr G)) g (rhead r) ys = Wb g (rbody r) ys.
Proof.
  apply (binz_ind' (fun fr G => (forall r0, In r0 G -> rhead r0 < lo) -> lo <= fr ->
    forall r, In r (fst (binz fr G)) -> lo <= rhead r ->
    forall ys, gstep S (fst (binz fr G)) g (rhead r) ys = Wb g (rbody r) ys)).
  - intros fr _ _ r [].
  - intros fr r0 t Hl IH Hh Hlo r. rewrite binz_short by exact Hl. cbn [fst].
    assert (H0 : rhead r0 < lo) by (apply Hh; left; reflexivity).
    intros [<-|Hr] Hr_lo ys; [lia|].
    rewrite gstep_cons, term_other by lia.
    rewrite (IH (fun r1 H1 => Hh r1 (or_intror H1)) Hlo r Hr Hr_lo ys). apply sadd_0_l.
  - intros fr w X y1 y2 y3 rest t IH Hh Hlo r. rewrite binz_long. cbn [fst].
    pose proof (heads_step lo w X _ (N fr :: y3 :: rest) t Hh) as Hh'.
    (* the other heads are old ones, below lo, or invented later, above fr *)
    pose proof (binz_heads_lo lo _ (Sn fr) Hh') as Hother.
    intros [<-|Hr] Hr_lo ys; rewrite gstep_cons.
    + rewrite term_mk. cbn [rhead rbody fst snd].
      rewrite Nat.eqb_refl, gstep_nohead; [rewrite smul_1_l; apply sadd_0_r|].
      intros r' Hr' E. destruct (Hother r' Hr'); lia.
    + rewrite term_other by (cbn [rhead fst snd]; destruct (Hother r Hr); lia).
      rewrite (IH Hh' (le_S _ _ Hlo) r Hr Hr_lo ys). apply sadd_0_l.
Qed.

Theorem binarize_restrict :
  forall (fresh : nat) (G : grammar S) (f' : nat -> list nat -> S),
    (forall r, In r G -> rhead r < fresh) ->
    solves (binarize fresh G) f' ->
    forall Z xs, Z < fresh -> f' Z xs = gstep S G f' Z xs.
Proof.
  intros fresh G f' Hh Hsol Z xs HZ.
  etransitivity; [exact (Hsol Z xs)|]. rewrite binarize_binz.
  (* binz_sum asks for the equations of the invented names; f' has them because each invented
     name heads exactly one rule of the binarized grammar (binz_inv) *)
  apply (binz_sum fresh f' Z HZ G fresh Hh (le_n _)).
  intros r Hr Hlo ys. etransitivity; [exact (Hsol (rhead r) ys)|]. rewrite binarize_binz.
  exact (binz_inv fresh f' G fresh Hh (le_n _) r Hr Hlo ys).
Qed.

(* extension of a valuation to the invented nonterminals *)
Fixpoint bin_ext (fuel fr : nat) (body : list sym) (f : nat -> list nat -> S) : nat -> list nat -> S :=
  match fuel with
  | O => f
  | Sn fu =>
      match body with
      | y1 :: y2 :: y3 :: rest => bin_ext fu (Sn fr) (N fr :: y3 :: rest) (upd f fr (Wb f [y1; y2]))
      | _ => f
      end
  end.

Fixpoint binz_ext (fr : nat) (G : grammar S) (f : nat -> list nat -> S) : nat -> list nat -> S :=
  match G with
  | [] => f
  | r :: t => binz_ext (snd (bb fr r)) t (bin_ext (length (rbody r)) fr (rbody r) f)
  end.

Lemma binz_ext_short fr (r : rule S) t f :
  length (rbody r) <= 2 -> binz_ext fr (r :: t) f = binz_ext fr t f.
Proof.
  intros Hl. cbn [binz_ext]. unfold bb. rewrite bin_body_base by (right; exact Hl). cbn [snd].
  destruct (rbody r) as [|y1 [|y2 [|y3 rest]]]; try reflexivity. cbn [length] in Hl. lia.
Qed.

Lemma binz_ext_long fr (w : S) X y1 y2 y3 rest t f :
  binz_ext fr ((w, X, y1 :: y2 :: y3 :: rest) :: t) f
  = binz_ext (Sn fr) ((w, X, N fr :: y3 :: rest) :: t) (upd f fr (Wb f [y1; y2])).
Proof. cbn [binz_ext]. unfold bb. cbn [rbody rw rhead fst snd length]. rewrite bin_body_step. reflexivity. Qed.

Lemma binz_ext_lo : forall (G : grammar S) fr f Z, Z < fr -> forall ys, binz_ext fr G f Z ys = f Z ys.
Proof.
  apply (binz_ind' (fun fr G => forall f Z, Z < fr -> forall ys, binz_ext fr G f Z ys = f Z ys)).
  - reflexivity.
  - intros fr r t Hl IH f Z HZ ys. rewrite binz_ext_short by exact Hl. apply IH. exact HZ.
  - intros fr w X y1 y2 y3 rest t IH f Z HZ ys. rewrite binz_ext_long, IH by lia. apply upd_other. lia.
Qed.

Lemma binz_ext_notin : forall (G : grammar S) fr f Z,
  (forall r, In r (fst (binz fr G)) -> rhead r <> Z) ->
  forall ys, binz_ext fr G f Z ys = f Z ys.
Proof.
  apply (binz_ind' (fun fr G => forall f Z, (forall r, In r (fst (binz fr G)) -> rhead r <> Z) ->
    forall ys, binz_ext fr G f Z ys = f Z ys)).
  - reflexivity.
  - intros fr r t Hl IH f Z. rewrite binz_short, binz_ext_short by exact Hl. cbn [fst]. intros Hn ys.
    apply IH. intros r' Hr'. apply Hn. right; exact Hr'.
  - intros fr w X y1 y2 y3 rest t IH f Z. rewrite binz_long, binz_ext_long. cbn [fst]. intros Hn ys.
    rewrite IH by (intros r' Hr'; apply Hn; right; exact Hr').
    apply upd_other. intros E. exact (Hn (1, fr, [y1; y2]) (or_introl eq_refl) (eq_sym E)).
Qed.

Lemma binz_ext_inv lo : forall (G : grammar S) fr f,
  (forall r0, In r0 G -> rhead r0 < lo) ->
  (forall r0 Y, In r0 G -> In (N Y) (rbody r0) -> Y < fr) ->
  lo <= fr ->
  inv_ok lo (binz_ext fr G f) (fst (binz fr G)).
Proof.
  apply (binz_ind' (fun fr G => forall f, (forall r0, In r0 G -> rhead r0 < lo) ->
    (forall r0 Y, In r0 G -> In (N Y) (rbody r0) -> Y < fr) -> lo <= fr ->
    inv_ok lo (binz_ext fr G f) (fst (binz fr G)))).
  - intros fr f _ _ _ r [].
  - intros fr r0 t Hl IH f Hh Hb Hlo r. rewrite binz_short, binz_ext_short by exact Hl. cbn [fst].
    intros [<-|Hr] Hr_lo; [specialize (Hh r0 (or_introl eq_refl)); lia|].
    apply (IH f); [| |exact Hlo|exact Hr|exact Hr_lo].
    + intros r1 H1. apply Hh. right; exact H1.
    + intros r1 Y H1. apply Hb. right; exact H1.
  - intros fr w X y1 y2 y3 rest t IH f Hh Hb Hlo r. rewrite binz_long, binz_ext_long. cbn [fst].
    set (f1 := upd f fr (Wb f [y1; y2])). set (G1 := (w, X, N fr :: y3 :: rest) :: t).
    assert (Hb0 : forall Y, In (N Y) (y1 :: y2 :: y3 :: rest) -> Y < fr)
      by (intros Y; exact (Hb _ Y (or_introl eq_refl))).
    intros [<-|Hr] Hr_lo ys.
    + (* the new name: its value was set from f, which the later steps leave alone below fr *)
      cbn [rhead rbody fst snd]. rewrite (binz_ext_lo G1 (Sn fr) f1 fr (le_n _) ys).
      unfold f1 at 1. rewrite upd_same. apply Wb_ext_in. intros Y zs HY.
      assert (HYfr : Y < fr) by (apply Hb0; destruct HY as [HY|[HY|[]]]; [left|right; left]; exact HY).
      rewrite (binz_ext_lo G1 (Sn fr) f1 Y (le_S _ _ HYfr) zs). unfold f1. rewrite upd_other by lia. reflexivity.
    + apply (IH f1); [| |lia|exact Hr|exact Hr_lo].
      * exact (heads_step lo w X _ _ t Hh).
      * intros r0 Y [<-|H1] HY.
        -- destruct HY as [HY|HY]; [injection HY as <-; lia|].
           assert (Y < fr) by (apply Hb0; right; right; exact HY). lia.
        -- assert (Y < fr) by (apply (Hb r0 Y); [right; exact H1|exact HY]). lia.
Qed.

Definition binarize_ext (fresh : nat) (G : grammar S) (f : nat -> list nat -> S) : nat -> list nat -> S :=
  binz_ext fresh G f.

Theorem binarize_extend :
  forall (fresh : nat) (G : grammar S) (f : nat -> list nat -> S),
    (forall r, In r G -> rhead r < fresh) ->
    (forall r Y, In r G -> In (N Y) (rbody r) -> Y < fresh) ->
    solves G f ->
    solves (binarize fresh G) (binarize_ext fresh G f) /\
    (forall Z xs, Z < fresh -> binarize_ext fresh G f Z xs = f Z xs).
Proof.
  intros fresh G f Hh Hb Hsol. unfold binarize_ext. set (f' := binz_ext fresh G f).
  assert (Hlow : forall Z xs, Z < fresh -> f' Z xs = f Z xs).
  { intros Z xs HZ. apply binz_ext_lo. exact HZ. }
  assert (Hinv : inv_ok fresh f' (fst (binz fresh G))).
  { apply binz_ext_inv; [exact Hh|exact Hb|apply le_n]. }
  split; [|exact Hlow]. intros Z xs. rewrite binarize_binz.
  destruct (lt_dec Z fresh) as [HZ|HZ].
  - rewrite (binz_sum fresh f' Z HZ G fresh Hh (le_n _) Hinv xs).
    rewrite (Hlow Z xs HZ). etransitivity; [exact (Hsol Z xs)|].
    apply gstep_ext_in. intros r Y ys Hr HY. symmetry. apply Hlow. exact (Hb r Y Hr HY).
  - destruct (find_namedP (@rhead S) (fst (binz fresh G)) Z) as [r Hr <-|Hn].
    + rewrite (binz_inv fresh f' G fresh Hh (le_n _) r Hr (proj1 (Nat.nlt_ge _ _) HZ) xs).
      apply Hinv; [exact Hr|lia].
    + rewrite (gstep_nohead _ f' Z xs Hn).
      unfold f'. rewrite (binz_ext_notin G fresh f Z Hn xs).
      apply (solves_nohead G f Z xs Hsol).
      intros r Hr. specialize (Hh r Hr). lia.
Qed.

Corollary binarize_extend_ex :
  forall (fresh : nat) (G : grammar S) (f : nat -> list nat -> S),
    (forall r, In r G -> rhead r < fresh) ->
    (forall r Y, In r G -> In (N Y) (rbody r) -> Y < fresh) ->
    solves G f ->
    exists f', solves (binarize fresh G) f' /\ forall Z xs, Z < fresh -> f' Z xs = f Z xs.
Proof.
  intros fresh G f Hh Hb Hsol. exists (binarize_ext fresh G f).
  exact (binarize_extend fresh G f Hh Hb Hsol).
Qed.

End FoldProofs.

Print Assumptions separate_terminals_restrict.
Print Assumptions separate_terminals_extend.
Print Assumptions fold_restrict.
Print Assumptions fold_extend.
Print Assumptions binarize_restrict.
Print Assumptions binarize_extend.
Print Assumptions binarize_extend_ex.
