(* Non-vacuity of the property theorems C02_ranked_grammars, C02_stable_weights_solve_the_equations, C09_product_grammar,
   C11_path_equations, C04_rescaling_invariant, C06_topdown_trim_preserves, C06_trim_preserves, C14_forward_conjugate and
   C14_conjugates_are_equivalent, in the style of NonVacuity.v: every hypothesis is stated literally for a concrete, non-trivial
   instance over a concrete semiring.  Each hypothesis is a lemma beside the example object; an Example first applies the
   property theorem to these lemmas ([R]) and then lists, conjunct by conjunct, the lemmas, [R], and evaluated values. *)
From Coq Require Import List QArith Qcanon Lia.
From GV.lib Require Import Semiring BigSum.
From GV.model Require Import Cfg Fst.
From GV.proofs Require FoldProofs StableSolves BarHillelProofs ProductProofs ConjugateProofs
  LehmannProof EpsEquations.
From GV.proofs Require Import NonVacuity.
From GV.props Require C02 C09 C11 C14.
Import ListNotations.
Local Open Scope nat_scope.


(* an acyclic grammar with three nonterminals and a binary rule (a = 0, b = 1; S = 0, A = 1, B = 2):
     S -> A B (1/2) | A b (1/3) ;  A -> a (1/5) | eps (1/7) ;  B -> b (1/2) | A b (1/3)
   ranked by  r S = 2, r B = 1, r A = 0 *)
Definition Gr : grammar QcSR :=
  [ (mkq 1 2, 0, [N 1; N 2]); (mkq 1 3, 0, [N 1; T 1]);
    (mkq 1 5, 1, [T 0]); (mkq 1 7, 1, []);
    (mkq 1 2, 2, [T 1]); (mkq 1 3, 2, [N 1; T 1]) ].
Definition rr (X : nat) : nat := match X with 0 => 2 | 2 => 1 | _ => 0 end.
Definition fr : nat -> list nat -> QcSR := fun X xs => W Gr (Datatypes.S (rr X)) X xs.

Lemma Gr_ranked : StableSolves.ranked QcSR rr Gr.
Proof. apply rankedb_ok. reflexivity. Qed.

Example C02_ranked_grammars_nonvacuous :
  StableSolves.ranked QcSR rr Gr /\
  (forall X xs, stable QcSR Gr X xs (W Gr (Datatypes.S (rr X)) X xs)) /\
  FoldProofs.solves QcSR Gr (fun X xs => W Gr (Datatypes.S (rr X)) X xs) /\
  W Gr (Datatypes.S (rr 0)) 0 [0; 1] = mkq 53 420 /\ W Gr (Datatypes.S (rr 0)) 0 [1] = mkq 17 196.
Proof.
  pose proof (C02.C02_ranked_grammars QcSR rr Gr Gr_ranked) as R.
  refine (conj Gr_ranked (conj (proj1 R) (conj (proj2 R) (conj _ _)))); qc.
Qed.

Lemma fr_stable : forall X xs, stable QcSR Gr X xs (fr X xs).
Proof. exact (proj1 (C02.C02_ranked_grammars QcSR rr Gr Gr_ranked)). Qed.

Example C02_stable_weights_solve_the_equations_nonvacuous :
  (forall X xs, stable QcSR Gr X xs (fr X xs)) /\ FoldProofs.solves QcSR Gr fr /\
  fr 0 [0; 1] = mkq 53 420 /\ fr 2 [1] = mkq 23 42.
Proof.
  pose proof (C02.C02_stable_weights_solve_the_equations QcSR Gr fr fr_stable) as R.
  refine (conj fr_stable (conj R (conj _ _))); qc.
Qed.

(* the instance of proofs/BarHillelProofs.v: the grammar S -> a S | b (ex_G, solved by ex_f) and a two-state transducer
   that writes 5 for a and 6 for b (ex_init, ex_fin, ex_arcs); states and input symbols are l01 = [0; 1] *)
Import BarHillelProofs.

Example C09_product_grammar_nonvacuous :
  let S := NSR in
  (forall p X q p' X' q', ex_nt p X q = ex_nt p' X' q' -> p = p' /\ X = X' /\ q = q') /\
  (forall p a q p' a' q', ex_tm p a q = ex_tm p' a' q' -> p = p' /\ a = a' /\ q = q') /\
  (forall p X q p' a q', ex_nt p X q <> ex_tm p' a q') /\
  (forall p X q, ex_nt p X q <> ex_s) /\ (forall p a q, ex_tm p a q <> ex_s) /\
  NoDup l01 /\ NoDup l01 /\
  (forall x, In x (ex_arcs S) -> In (BarHillel.asrc x) l01 /\ In (BarHillel.adst x) l01 /\ In (BarHillel.ain x) l01) /\
  (forall i, In i (ex_init S) -> In (fst i) l01) /\ (forall k, In k (ex_fin S) -> In (fst k) l01) /\
  (forall r a, In r (ex_G S) -> In (T a) (rbody r) -> In a l01) /\
  FoldProofs.solves S (ex_G S) (ex_f S) /\
  FoldProofs.solves S (ex_bh S) (ex_Fv S) /\
  (forall ys fuel, length ys <= fuel ->
     ex_Fv S ex_s ys =
     bsum (ProductProofs.words_eq l01 (length ys))
          (fun xs => smul (ex_f S 0 xs) (trel (lift_fst S (ex_init S) (ex_fin S) (ex_arcs S)) fuel xs ys))) /\
  ex_Fv S ex_s [5; 6] = 7%N /\
  bsum (ProductProofs.words_eq l01 2)
       (fun xs => smul (ex_f S 0 xs) (trel (lift_fst S (ex_init S) (ex_fin S) (ex_arcs S)) 2 xs [5; 6])) = 7%N.
Proof.
  intros S.
  pose proof (C09.C09_product_grammar S ex_nt ex_tm ex_s l01 (ex_init S) (ex_fin S) (ex_arcs S) (ex_G S) 0 l01 (ex_f S)
                ex_nt_inj ex_tm_inj ex_nt_tm ex_nt_s ex_tm_s NoDup_01 NoDup_01
                (ex_arcs_in S) (ex_init_in S) (ex_fin_in S) (ex_G_terms S) (ex_f_solves S)) as R.
  refine (conj ex_nt_inj (conj ex_tm_inj (conj ex_nt_tm (conj ex_nt_s (conj ex_tm_s (conj NoDup_01 (conj NoDup_01
          (conj (ex_arcs_in S) (conj (ex_init_in S) (conj (ex_fin_in S) (conj (ex_G_terms S) (conj (ex_f_solves S)
          (conj (proj1 R) (conj (proj2 R) (conj _ _)))))))))))))));
    vm_compute; reflexivity.
Qed.


From GV.model Require Import Linear Wfsa EpsSpec.

(* an automaton with an epsilon CYCLE  0 -eps(1/2)-> 1 -eps(1/3)-> 0,  a real arc  1 -a(1/5)-> 2
   and a real loop 2 -a(1/4)-> 2; final weights 1/2 at state 1 and 1 at state 2; start in state 0.
   The cycle has weight 1/6, so its star 6/5 is defined. *)
Definition mc : wfsa QcStar := @mkW QcStar [(0, mkq 1 1)] [(1, mkq 1 2); (2, mkq 1 1)]
  [(0, None, 1, mkq 1 2); (1, None, 0, mkq 1 3); (1, Some 0, 2, mkq 1 5); (2, Some 0, 2, mkq 1 4)].

Definition Kc : mat QcStar := lehmann (states_of mc) (eps_mat mc).
Definition vc : nat -> list nat -> QcStar := EpsEquations.val Kc mc.

Lemma mc_defined : LehmannProof.defined QcStar (states_of mc) (eps_mat mc).
Proof. vm_compute. repeat split; discriminate. Qed.

Example C11_path_equations_nonvacuous :
  states_of mc = [0; 1; 2] /\
  LehmannProof.defined QcStar (states_of mc) (eps_mat mc) /\
  (forall xs, call mc xs = bsum (winit mc) (fun e => smul (snd e) (vc (fst e) xs))) /\
  (forall q, In q (states_of mc) ->
     vc q [] = sadd (wget (wfinal mc) q) (bsum (states_of mc) (fun j => smul (epsf mc q j) (vc j [])))) /\
  (forall q a xs, In q (states_of mc) ->
     vc q (a :: xs) = sadd (bsum (warcs mc) (fun ar => if andb (Nat.eqb (asrc ar) q) (lbl_eqb (albl ar) a)
                                                    then smul (awt ar) (vc (adst ar) xs) else s0))
                           (bsum (states_of mc) (fun j => smul (epsf mc q j) (vc j (a :: xs))))) /\
  (* the epsilon cycle really is one: both arcs of it are seen by epsf, and the closure sums it *)
  epsf mc 0 1 = mkq 1 2 /\ epsf mc 1 0 = mkq 1 3 /\ mget Kc 0 0 = mkq 6 5 /\ mget Kc 0 1 = mkq 3 5 /\
  call mc [] = mkq 3 10 /\ call mc [0] = mkq 3 25 /\ call mc [0; 0] = mkq 3 100 /\
  vc 0 [0] = mkq 3 25 /\ vc 1 [0] = mkq 6 25.
Proof.
  pose proof (C11.C11_path_equations QcStar mc mc_defined) as R.
  refine (conj eq_refl (conj mc_defined (conj (proj1 R) (conj (proj1 (proj2 R)) (conj (proj2 (proj2 R)) _))))).
  (* the nine values; [apply conj] does not try to close an equation by reflexivity, [split] would *)
  repeat apply conj; qc.
Qed.

From GV.model Require Import Norm.
From GV.proofs Require RescaleProofs.
From GV.props Require C04.

(* the language model nw4 of NonVacuity.v (weight (1/2)^(n+1) for 0^n), every context's weights multiplied by
   the coefficient 3 * (1/2)^|ctx| -- a different, non-zero factor per context, as the rescaled parser's columns carry *)
Definition c4 (ctx : list nat) : QcFR := (mkq 3 1 * hp (length ctx))%Qc.

Lemma c4_nonzero : c4 [0; 0] <> s0.
Proof. vm_compute. discriminate. Qed.
Lemma c4_prefixes_nonzero : forall k, k <= 2 -> c4 (firstn k [0; 0]) <> s0 /\ zsum [0] 1 nw4 (firstn k [0; 0]) <> s0.
Proof. intros [|[|[|k]]] Hk; [| | |lia]; split; vm_compute; discriminate. Qed.

Example C04_rescaling_invariant_nonvacuous :
  c4 [0; 0] <> s0 /\ zsum [0] 1 nw4 [0; 0] <> s0 /\
  RescaleProofs.scaled QcFR c4 nw4 [0; 0] 0 <> nw4 [0; 0] 0 /\
  p_next [0] 1 (RescaleProofs.scaled QcFR c4 nw4) [0; 0] 0 = p_next [0] 1 nw4 [0; 0] 0 /\
  p_next [0] 1 (RescaleProofs.scaled QcFR c4 nw4) [0; 0] 0 = mkq 1 2 /\
  (forall k, k <= length [0; 0] -> c4 ([] ++ firstn k [0; 0]) <> s0 /\ zsum [0] 1 nw4 ([] ++ firstn k [0; 0]) <> s0) /\
  chain [0] 1 (RescaleProofs.scaled QcFR c4 nw4) [] [0; 0] = chain [0] 1 nw4 [] [0; 0] /\
  chain [0] 1 (RescaleProofs.scaled QcFR c4 nw4) [] [0; 0] = mkq 1 8.
Proof.
  pose proof (C04.C04_rescaling_invariant QcFR [0] 1 c4 nw4) as R.
  refine (conj c4_nonzero (conj zsum4_nonzero (conj _ (conj (proj1 R [0; 0] 0 c4_nonzero zsum4_nonzero) (conj _
          (conj c4_prefixes_nonzero (conj (proj2 R [0; 0] [] c4_prefixes_nonzero) _))))))).
  - (* the rescaled weight differs *) vm_compute. discriminate.
  - (* p_next = 1/2 *) qc.
  - (* chain = 1/8 *) qc.
Qed.

From GV.model Require TopDown.
From GV.gen Require Gen_Cfg.
From GV.proofs Require TopDownTrimProofs.
From GV.props Require C06.

(* td_ex_G (proofs/TopDownTrimProofs.v): 0 -> a (1/2) | 1 b (1/3) | 3 (1/2);  1 -> a (1/5);  2 -> b (1/7) [unreachable];
   3 -> 3 (1/2) [non-generating] *)
Example C06_topdown_trim_preserves_nonvacuous :
  TopDownTrimProofs.td_closed TopDownTrimProofs.td_ex_G TopDownTrimProofs.td_ex_keep /\
  TopDownTrimProofs.td_ex_keep (N 0) = true /\
  length (Gen_Cfg.gen_trim QcSR TopDownTrimProofs.td_ex_keep TopDownTrimProofs.td_ex_G) = 3 /\
  length TopDownTrimProofs.td_ex_G = 6 /\
  (forall h xs, W (Gen_Cfg.gen_trim QcSR TopDownTrimProofs.td_ex_keep TopDownTrimProofs.td_ex_G) h 0 xs = W TopDownTrimProofs.td_ex_G h 0 xs) /\
  W TopDownTrimProofs.td_ex_G 3 0 [0; 1] = mkq 1 15.
Proof.
  pose proof (C06.C06_topdown_trim_preserves QcSR TopDownTrimProofs.td_ex_G TopDownTrimProofs.td_ex_keep TopDownTrimProofs.td_ex_closed) as R.
  refine (conj TopDownTrimProofs.td_ex_closed (conj eq_refl (conj _ (conj eq_refl (conj (fun h xs => proj1 R h 0 xs eq_refl) _))))).
  - (* three rules are kept *) vm_compute. reflexivity.
  - (* W = 1/15 *) qc.
Qed.

Example C06_trim_preserves_nonvacuous :
  TopDown.reachable TopDownTrimProofs.td_ex_G 0 = [1; 0] /\
  length (TopDown.trim_model 0 TopDownTrimProofs.td_ex_G) = 3 /\
  (forall h xs, W (TopDown.trim_model 0 TopDownTrimProofs.td_ex_G) h 0 xs = W TopDownTrimProofs.td_ex_G h 0 xs) /\
  TopDown.trim_model 3 TopDownTrimProofs.td_ex_G = [] /\
  (forall h xs, W TopDownTrimProofs.td_ex_G h 3 xs = W (TopDown.trim_model 3 TopDownTrimProofs.td_ex_G) h 3 xs).
Proof.
  pose proof (C06.C06_trim_preserves QcSR TopDownTrimProofs.td_ex_G 0) as R.
  pose proof (C06.C06_trim_preserves QcSR TopDownTrimProofs.td_ex_G 3) as R3.
  refine (conj _ (conj _ (conj (proj1 R) (conj _ (fun h xs => eq_sym (proj1 R3 h xs))))));
    vm_compute; reflexivity.
Qed.

(* model/Conjugate.v defines an automaton [conj]: from here on the constructor of /\ is written Logic.conj *)
From GV.model Require Import Conjugate.
Import ConjugateProofs.

(* exA = ([1, 1], M_0 = [[1, 2], [2, 1]], [2; 5]) over the rationals, merged into the one-state exB = (1, 3, 7)
   by F = [[1, 1]], P = [[1/2], [1/2]];  c = [1] and N_a = [[3]] witness  alpha = c F  and  F M_a = N_a F. *)
Example C14_forward_conjugate_nonvacuous :
  let c : nat -> QcSR := fun _ => mkq 1 1 in
  let Nm : nat -> nat -> nat -> QcSR := fun _ _ _ => mkq 3 1 in
  FPF QcSR exA [0] exF exP /\
  (forall j, In j (dim exA) -> mstart exA j = bsum [0] (fun i => smul (c i) (exF i j))) /\
  (forall a i j, In i [0] -> In j (dim exA) ->
     bsum (dim exA) (fun k => smul (exF i k) (marc exA a k j)) = bsum [0] (fun n => smul (Nm a i n) (exF n j))) /\
  (forall w, mweight exA w = mweight (conj [0] exF exP exA) w) /\
  mweight exA [0; 0] = mkq 63 1 /\ mweight (conj [0] exF exP exA) [0; 0] = mkq 63 1.
Proof.
  intros c Nm.
  pose proof (C14.C14_forward_conjugate QcSR exA [0] exF exP c Nm ex_FPF ex_start_cF ex_rows_NF) as R.
  exact (Logic.conj ex_FPF (Logic.conj ex_start_cF (Logic.conj ex_rows_NF (Logic.conj R (Logic.conj ex_weight_A ex_weight_B))))).
Qed.

(* forward intertwiner exF from exA to exB, backward intertwiner the identity matrix from exB to exB *)
Definition idm : nat -> nat -> QcSR := fun i j => if Nat.eqb i j then mkq 1 1 else mkq 0 1.

Lemma idm_intertwines_back : intertwines_back idm exB exB.
Proof.
  split; [|split].
  - intros j [<-|[]]. qc.
  - intros a. apply qc_table. vm_compute. reflexivity.
  - intros i [<-|[]]. qc.
Qed.

Example C14_conjugates_are_equivalent_nonvacuous :
  intertwines exF exA exB /\ intertwines_back idm exB exB /\
  (forall w, mweight exA w = mweight exB w) /\
  mweight exA [0; 0; 0] = mkq 189 1 /\ mweight exB [0; 0; 0] = mkq 189 1.
Proof.
  pose proof (C14.C14_conjugates_are_equivalent QcSR exF idm exA exB exB ex_intertwines idm_intertwines_back) as R.
  refine (Logic.conj ex_intertwines (Logic.conj idm_intertwines_back (Logic.conj R (Logic.conj _ _)))); qc.
Qed.

Print Assumptions C02_ranked_grammars_nonvacuous.
Print Assumptions C02_stable_weights_solve_the_equations_nonvacuous.
Print Assumptions C09_product_grammar_nonvacuous.
Print Assumptions C11_path_equations_nonvacuous.
Print Assumptions C14_forward_conjugate_nonvacuous.
Print Assumptions C14_conjugates_are_equivalent_nonvacuous.
Print Assumptions C04_rescaling_invariant_nonvacuous.
Print Assumptions C06_topdown_trim_preserves_nonvacuous.
Print Assumptions C06_trim_preserves_nonvacuous.
