(* The joint tabulation of model/Prefix.v (span chart, prefix chart, totals) agrees
   with the reference semantics: after n rounds the span chart holds W G n, the prefix
   chart holds Wpre G n on every suffix of the input, and the totals hold bu_iter G n.
   A value returned by prefix_lang is the stable value of Wpre. *)
From Coq Require Import List Arith Bool Lia.
From GV.lib Require Import Semiring BigSum.
From GV.model Require Import Cfg Agenda Prefix.
From GV.proofs Require Import CfgTrees CfgChart.
Import ListNotations.
Local Open Scope sr_scope.

Lemma sub_length {A} (l : list A) (m n : nat) :
  (n <= length l)%nat -> length (sub l m n) = (n - m)%nat.
Proof. intros H. unfold sub. rewrite firstn_length, skipn_length. lia. Qed.

Lemma pkeyeq_spec (a b : nat * nat) : pkeyeq a b = true <-> a = b.
Proof.
  destruct a as [x i], b as [y j]. unfold pkeyeq. cbn [fst snd].
  rewrite andb_true_iff, !Nat.eqb_eq. split; [intros [-> ->]; reflexivity|].
  intros E. injection E as -> ->. auto.
Qed.

Section PrefixChart.
Variable S : SR.

Lemma Zb_ext (Z Z' : nat -> S) (body : list sym) :
  (forall Y, Z Y = Z' Y) -> Zb Z body = Zb Z' body.
Proof.
  intros H. unfold Zb. f_equal. apply map_ext. intros [a|Y]; cbn [sval]; [reflexivity|apply H].
Qed.

Section Fixed.
Variable G : grammar S.
Variable xs : list nat.

(* the proper splits of a suffix of xs are its cut positions *)
Lemma bsum_splits_ne_sub (F : list nat * list nat -> S) (i : nat) :
  (i <= length xs)%nat ->
  bsum (splits_ne (sub xs i (length xs))) F
  = bsum (seq i (length xs - i)) (fun m => F (sub xs i m, sub xs m (length xs))).
Proof.
  intros Hi. unfold splits_ne. rewrite bsum_filter.
  rewrite (splits_sub xs i (length xs) Hi (le_n _)). rewrite bsum_map.
  (* the last cut, m = length xs, leaves an empty second part and is filtered out *)
  rewrite (Nat.sub_succ_l i (length xs) Hi), seq_S, bsum_app, bsum_cons, bsum_nil. cbn [fst snd].
  rewrite (Nat.add_comm i), (Nat.sub_add i (length xs) Hi), sub_nil. cbn [length Nat.eqb negb].
  rewrite (bsum_ext S (seq i (length xs - i)) _
             (fun m => F (sub xs i m, sub xs m (length xs)))).
  - rewrite sadd_0_l. apply sadd_0_r.
  - intros m Hm. apply in_seq in Hm. rewrite sub_length by lia.
    destruct (length xs - m)%nat eqn:E; [lia|reflexivity].
Qed.

Definition pval (c : chart S) (pc : pchart S) (tc : tchart S) (X i : nat) : S :=
  bsum G (fun r => if Nat.eqb (rhead r) X
                   then rw r * body_pre S c pc tc xs (rbody r) i else 0).

Lemma pget_pstep (c : chart S) (pc : pchart S) (tc : tchart S) (X i : nat) :
  (i <= length xs)%nat -> pget (pstep S G xs c pc tc) (X, i) = pval c pc tc X i.
Proof.
  intros Hi.
  apply (aget_tabulated S pkeyeq pkeyeq_spec (fun k => pval c pc tc (fst k) (snd k)) (X, i)).
  - intros [X' i'] v H. apply in_flat_map in H. destruct H as [Y [_ H]].
    apply in_map_iff in H. destruct H as [m [E _]]. injection E as -> -> <-. reflexivity.
  - intros Hv. apply in_flat_map. exists X. split; [exact (bsum_head_nonzero S G X _ Hv)|].
    apply (in_map (fun i => (X, i, pval c pc tc X i))), in_seq. cbn [snd]. lia.
Qed.

Lemma tget_tstep (tc : tchart S) (X : nat) :
  tget (tstep S G tc) X = bu_step G (tget tc) X.
Proof.
  apply (aget_tabulated S Nat.eqb Nat.eqb_eq (bu_step G (tget tc)) X).
  - intros Y v H. apply in_map_iff in H. destruct H as [Y' [E _]]. injection E as <- <-. reflexivity.
  - intros Hv. apply (in_map (fun X => (X, bu_step G (tget tc) X))). exact (bsum_head_nonzero S G X _ Hv).
Qed.

Definition pstate_ok (st : pstate S) (n : nat) : Prop :=
  chart_ok S G xs (fst (fst st)) n /\
  (forall X i, (i <= length xs)%nat ->
     pget (snd (fst st)) (X, i) = Wpre G n X (sub xs i (length xs))) /\
  (forall X, tget (snd st) X = bu_iter G n X).

Lemma body_pre_ok (c : chart S) (pc : pchart S) (tc : tchart S) (n : nat) :
  pstate_ok (c, pc, tc) n ->
  forall body i, (i <= length xs)%nat ->
    body_pre S c pc tc xs body i
    = WBpre (W G n) (Wpre G n) (bu_iter G n) body (sub xs i (length xs)).
Proof.
  intros [Hc [Hpc Htc]]. cbn [fst snd] in Hc, Hpc, Htc.
  induction body as [|s rest IH]; intros i Hi.
  - cbn [body_pre WBpre]. destruct (Nat.eqb_spec i (length xs)) as [E|E].
    + subst i. rewrite sub_nil. reflexivity.
    + destruct (nth_error_defined xs i) as [b Hb]; [lia|].
      rewrite (sub_cons xs i (length xs) b) by (lia || exact Hb). reflexivity.
  - destruct s as [a|Y].
    + cbn [body_pre WBpre]. destruct (Nat.eqb_spec i (length xs)) as [E|E].
      * subst i. rewrite sub_nil. unfold zb_exec. apply Zb_ext. exact Htc.
      * destruct (nth_error_defined xs i) as [b Hb]; [lia|].
        rewrite Hb. rewrite (sub_cons xs i (length xs) b) by (lia || exact Hb).
        destruct (Nat.eqb a b); [|reflexivity].
        apply IH. lia.
    + cbn [body_pre WBpre]. f_equal.
      * rewrite (bsum_splits_ne_sub _ i Hi). apply bsum_ext. intros m Hm.
        apply in_seq in Hm. cbn [fst snd].
        rewrite (Hc Y i m) by lia. rewrite (IH m) by lia. reflexivity.
      * rewrite (Hpc Y i Hi). unfold zb_exec. rewrite (Zb_ext _ _ rest Htc). reflexivity.
Qed.

Lemma pstate_ok_nil : pstate_ok ([], [], []) O.
Proof.
  split; [|split].
  - apply chart_ok_nil.
  - intros X i _. reflexivity.
  - intros X. reflexivity.
Qed.

Lemma pstate_ok_step (st : pstate S) (n : nat) :
  pstate_ok st n -> pstate_ok (pstep_all G xs st) (Datatypes.S n).
Proof.
  destruct st as [[c pc] tc]. intros Hok. pose proof Hok as [Hc [Hpc Htc]].
  cbn [fst snd] in Hc, Hpc, Htc. cbn [pstep_all]. split; [|split]; cbn [fst snd].
  - apply chart_ok_step. exact Hc.
  - intros X i Hi. rewrite (pget_pstep c pc tc X i Hi). apply bsum_head_ext. intros r _ _.
    rewrite (body_pre_ok c pc tc n Hok (rbody r) i Hi). reflexivity.
  - intros X. rewrite tget_tstep. apply bsum_head_ext. intros r _ _.
    f_equal. exact (Zb_ext _ _ (rbody r) Htc).
Qed.

Lemma piter_iter (n : nat) : forall st : pstate S, piter G xs n st = iter (pstep_all G xs) n st.
Proof. induction n as [|n IH]; intros st; [reflexivity|apply IH]. Qed.

Lemma pfix_fixf (fuel : nat) : forall st : pstate S,
  pfix G xs fuel st = fixf (pstep_all G xs) (pstate_eqb S) fuel st.
Proof. induction fuel as [|f IH]; intros st; [reflexivity|]. cbn [pfix fixf]. rewrite IH. reflexivity. Qed.

End Fixed.

Lemma pstate_eqb_eq (a b : pstate S) : pstate_eqb S a b = true -> a = b.
Proof.
  destruct a as [[c pc] tc], b as [[c' pc'] tc']. cbn [pstate_eqb].
  rewrite !andb_true_iff. intros [[H1 H2] H3].
  apply chart_eqb_eq in H1. apply (assoc_eqb_eq S pkeyeq pkeyeq_spec) in H2.
  apply (assoc_eqb_eq S Nat.eqb Nat.eqb_eq) in H3. subst. reflexivity.
Qed.

Theorem piter_correct : forall (G : grammar S) (xs : list nat) (n : nat),
  let st := piter G xs n ([], [], []) in
  (forall X i j, i <= j -> j <= length xs ->
     cget (fst (fst st)) (X, i, j) = W G n X (sub xs i j)) /\
  (forall X i, i <= length xs ->
     pget (snd (fst st)) (X, i) = Wpre G n X (sub xs i (length xs))) /\
  (forall X, tget (snd st) X = bu_iter G n X).
Proof.
  intros G xs n st. subst st. rewrite piter_iter.
  exact (iter_inv (pstep_all G xs) (pstate_ok G xs) (pstate_ok_step G xs) n _ (pstate_ok_nil G xs)).
Qed.

Theorem pfix_piter : forall (G : grammar S) xs fuel st st',
  pfix G xs fuel st = Some st' ->
  exists n, piter G xs n st = st' /\ pstep_all G xs st' = st'.
Proof.
  intros G xs fuel st st' H. rewrite pfix_fixf in H.
  destruct (fixf_iter _ _ pstate_eqb_eq _ _ _ H) as [n Hn]. exists n. rewrite piter_iter. exact Hn.
Qed.

Theorem prefix_lang_stable : forall (G : grammar S) fuel X xs v,
  prefix_lang G fuel X xs = Some v -> exists H, forall h, H <= h -> Wpre G h X xs = v.
Proof.
  intros G fuel X xs v H. unfold prefix_lang in H. rewrite pfix_fixf in H.
  destruct (fixf (pstep_all G xs) (pstate_eqb S) fuel ([], [], [])) as [st|] eqn:E; [|discriminate].
  destruct (fixf_stable _ _ pstate_eqb_eq _ _ _ E) as [n Hn].
  exists n. intros h Hh.
  destruct (piter_correct G xs h) as [_ [HP _]].
  specialize (HP X O (Nat.le_0_l _)). rewrite piter_iter, (Hn h Hh), sub_full in HP.
  destruct st as [[c pc] tc]. injection H as <-. symmetry. exact HP.
Qed.

End PrefixChart.

Print Assumptions piter_correct.
Print Assumptions pfix_piter.
Print Assumptions prefix_lang_stable.
