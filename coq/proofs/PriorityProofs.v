(* Agenda priorities of the two Earley parsers (regenerated: Gen_Exprs.priority_earley/rescaled,
   order_max_earley/rescaled).  A completed item (J,Y) of column K is popped before an item (I,X)
   it can contribute to: either it has a strictly shorter span (I < J <= K), or the
   same span and a smaller order.  Items are popped at maximal priority. *)
From Coq Require Import ZArith Lia.
From GV.gen Require Import Gen_Exprs.
Local Open Scope Z_scope.

(* prio K I OM o: priority of an item of column K that starts at I and whose nonterminal has
   order o, with OM = om m the ORDER_MAX of earley.py (_update: -((K - I) * ORDER_MAX + order[X]));
   m = max of the order values, every order lies in [0, m] *)
Definition span_first (prio : Z -> Z -> Z -> Z -> Z) (om : Z -> Z) : Prop :=
  forall m K I J oX oY, 0 <= oX <= m -> 0 <= oY <= m -> I < J -> J <= K ->
    prio K J (om m) oY > prio K I (om m) oX.
Definition order_first (prio : Z -> Z -> Z -> Z -> Z) (om : Z -> Z) : Prop :=
  forall m K I oX oY, oY < oX -> prio K I (om m) oY > prio K I (om m) oX.

Lemma earley_span_first : span_first priority_earley order_max_earley.
Proof. unfold span_first, priority_earley, order_max_earley. intros m K I J oX oY HX HY HIJ HJK.
  (* K - I = (K - J) + (J - I - 1) + 1: the middle part is non-negative and the last one
     contributes 1 + m, more than any difference of orders *)
  assert (Hd : 0 <= (J - I - 1) * (1 + m)) by (apply Z.mul_nonneg_nonneg; lia).
  replace ((K - I) * (1 + m)) with ((K - J) * (1 + m) + (J - I - 1) * (1 + m) + (1 + m)) by ring. lia. Qed.
Lemma earley_order_first : order_first priority_earley order_max_earley.
Proof. unfold order_first, priority_earley, order_max_earley. intros. lia. Qed.
