(* Invariance of the derivation sum W under rule reordering and injective renaming,
   CFG.separate_start, and correctness of the CKY recursion on grammars in Chomsky
   normal form (cky = W as soon as the height bound exceeds the string length). *)
From Coq Require Import List Arith Bool Lia Permutation.
From GV.lib Require Import Semiring BigSum.
From GV.model Require Import Cfg Cky Transform.
From GV.proofs Require Export CfgTrees.
Import ListNotations.
Local Open Scope sr_scope.

Section CkyProofs.
Variable S : SR.
Add Ring CkyRing : (sth S).

Theorem W_perm : forall (G G' : grammar S) h X xs,
  Permutation G G' -> W G h X xs = W G' h X xs.
Proof.
  intros G G' h X xs HP. revert X xs.
  induction h as [|h IH]; intros X xs; [reflexivity|].
  rewrite !W_S. rewrite (bsum_perm S G G' _ HP).
  apply bsum_ext; intros r _.
  destruct (Nat.eqb (rhead r) X); [|reflexivity].
  f_equal. apply Wb_ext. exact IH.
Qed.

Lemma Wb_rename (f : nat -> nat) (g' g : nat -> list nat -> S) :
  (forall Y ys, g' (f Y) ys = g Y ys) ->
  forall body xs, Wb g' (map (rename_sym f) body) xs = Wb g body xs.
Proof.
  intros Hg. induction body as [|[a|Y] rest IH]; intros xs.
  - reflexivity.
  - cbn [map rename_sym Wb]. destruct xs as [|b xs']; [reflexivity|].
    destruct (Nat.eqb a b); [apply IH|reflexivity].
  - cbn [map rename_sym Wb]. apply bsum_ext; intros p _. rewrite Hg, IH. reflexivity.
Qed.

Lemma bsum_rename_g (f : nat -> nat) (G : grammar S) (F : rule S -> S) :
  bsum (rename_g f G) F
  = bsum G (fun r => F (rw r, f (rhead r), map (rename_sym f) (rbody r))).
Proof. unfold rename_g. apply bsum_map. Qed.

Theorem W_rename : forall (f : nat -> nat) (G : grammar S) h X xs,
  (forall p q, f p = f q -> p = q) ->
  W (rename_g f G) h (f X) xs = W G h X xs.
Proof.
  intros f G h X xs Hinj. revert X xs.
  induction h as [|h IH]; intros X xs; [reflexivity|].
  rewrite !W_S, bsum_rename_g.
  apply bsum_ext; intros [[w hd] body] _.
  cbn [rhead rw rbody fst snd].
  rewrite (eqb_inj_f f Hinj).
  destruct (Nat.eqb hd X); [|reflexivity].
  f_equal. apply Wb_rename. exact IH.
Qed.

(* the value of the empty body: Wb f [] xs = nilw xs *)
Definition nilw (l : list nat) : S := match l with [] => 1 | _ => 0 end.

Theorem separate_start_W : forall (G : grammar S) (s' s : nat) h xs,
  (forall r, In r G -> rhead r <> s') ->
  (forall r, In r G -> ~ In (N s') (rbody r)) ->
  s' <> s ->
  W (snd (separate_start s' s G)) (Datatypes.S h) (fst (separate_start s' s G)) xs
  = if on_rhs s G then W G h s xs else W G (Datatypes.S h) s xs.
Proof.
  intros G s' s h xs Hheads Hbodies Hs.
  unfold separate_start. destruct (on_rhs s G); cbn [fst snd]; [|reflexivity].
  rewrite W_S, bsum_cons.
  change (rhead (1, s', [N s])) with s'.
  change (rw (1, s', [N s])) with (@s1 S).
  change (rbody (1, s', [N s])) with [N s].
  rewrite Nat.eqb_refl, Wb_N1.
  match goal with |- _ * ?w + ?a = _ =>
    assert (Hw : w = W G h s xs); [|assert (Ha : a = 0); [|rewrite Hw, Ha; ring]] end.
  - apply (W_cons_other S G (1, s', [N s]) Hbodies h s xs).
    intros E; apply Hs; symmetry; exact E.
  - apply bsum_zero; intros r Hr.
    assert (E : Nat.eqb (rhead r) s' = false) by (apply Nat.eqb_neq; apply Hheads; exact Hr).
    rewrite E. reflexivity.
Qed.

Lemma cnf_shape (s : nat) (r : rule S) :
  cnf_rule s r = true ->
  (rbody r = [] /\ rhead r = s)
  \/ (exists a, rbody r = [T a])
  \/ (exists y z, rbody r = [N y; N z] /\ y <> s /\ z <> s).
Proof.
  unfold cnf_rule. destruct (rbody r) as [|[a|y] [|[b|z] [|c l]]]; intros H; try discriminate.
  - left; split; [reflexivity|apply Nat.eqb_eq; exact H].
  - right; left; exists a; reflexivity.
  - right; right; exists y, z.
    apply andb_true_iff in H. destruct H as [H1 H2].
    apply negb_true_iff in H1. apply negb_true_iff in H2.
    apply Nat.eqb_neq in H1. apply Nat.eqb_neq in H2. auto.
Qed.

Lemma in_cnf_In (s : nat) (G : grammar S) :
  in_cnf s G = true -> forall r, In r G -> cnf_rule s r = true.
Proof. unfold in_cnf. intros H. apply forallb_forall. exact H. Qed.

Lemma if_smul_0 (c : bool) (w : S) : (if c then w * 0 else 0) = 0.
Proof. rewrite smul_0_r. destruct c; reflexivity. Qed.

Lemma cnf_W_empty_nonstart (G : grammar S) (s : nat) :
  in_cnf s G = true -> forall h X, X <> s -> W G h X [] = 0.
Proof.
  intros Hc. induction h as [|h IH]; intros X HX; [reflexivity|].
  rewrite W_S. apply bsum_zero; intros r Hr.
  destruct (Nat.eqb_spec (rhead r) X) as [E|E]; [|reflexivity].
  destruct (cnf_shape s r (in_cnf_In s G Hc r Hr)) as [[Eb Eh]|[[a Eb]|[y [z [Eb [Hy Hz]]]]]]; rewrite Eb.
  - exfalso. apply HX. rewrite <- E. exact Eh.
  - rewrite Wb_T1. apply smul_0_r.
  - rewrite Wb_NN. cbn [splits]. rewrite bsum_cons, bsum_nil. cbn [fst snd].
    rewrite (IH y Hy), smul_0_l, sadd_0_l. apply smul_0_r.
Qed.

Lemma cnf_W_empty_start (G : grammar S) (s : nat) :
  in_cnf s G = true -> forall h,
  W G (Datatypes.S h) s [] = bsum G (fun r => match rbody r with [] => rw r | _ => 0 end).
Proof.
  intros Hc h. rewrite W_S. apply bsum_ext; intros r Hr.
  destruct (cnf_shape s r (in_cnf_In s G Hc r Hr)) as [[Eb Eh]|[[a Eb]|[y [z [Eb [Hy Hz]]]]]]; rewrite Eb.
  - rewrite Eh, Nat.eqb_refl, Wb_nil_nil. apply smul_1_r.
  - rewrite Wb_T1. apply if_smul_0.
  - rewrite Wb_NN. cbn [splits]. rewrite bsum_cons, bsum_nil. cbn [fst snd].
    rewrite (cnf_W_empty_nonstart G s Hc h y Hy), smul_0_l, sadd_0_l. apply if_smul_0.
Qed.

Lemma cnf_W_ckyf (G : grammar S) (s : nat) :
  in_cnf s G = true ->
  forall f h X xs, xs <> [] -> length xs <= h -> length xs <= f ->
  W G h X xs = ckyf G f X xs.
Proof.
  (* by induction on the fuel alone: both parts of a proper split are shorter than the
     string, so they fit the smaller fuel and the smaller height *)
  intros Hc. induction f as [|f IH]; intros h X xs Hne Hh Hf.
  { destruct xs; [contradiction|inversion Hf]. }
  destruct xs as [|a t]; [contradiction|]. destruct h as [|h]; [inversion Hh|].
  pose proof (cnf_W_empty_nonstart G s Hc h) as H0.
  rewrite W_S. destruct t as [|b t]; cbn [ckyf]; apply bsum_ext; intros r Hr;
    destruct (cnf_shape s r (in_cnf_In s G Hc r Hr)) as [[Eb Eh]|[[c Eb]|[y [z [Eb [Hy Hz]]]]]];
    rewrite Eb; cbv beta iota.
  - (* a single symbol *)
    rewrite Wb_nil_cons. apply if_smul_0.
  - rewrite Wb_T1, (Nat.eqb_sym a c).
    destruct (Nat.eqb (rhead r) X), (Nat.eqb c a); cbn [andb]; rewrite ?smul_1_r, ?smul_0_r; reflexivity.
  - rewrite Wb_NN. cbn [splits map]. rewrite !bsum_cons, bsum_nil. cbn [fst snd].
    rewrite (H0 y Hy), (H0 z Hz), smul_0_l, smul_0_r, !sadd_0_l. apply if_smul_0.
  - (* at least two symbols *)
    rewrite Wb_nil_cons. apply if_smul_0.
  - rewrite Wb_T1. apply if_smul_0.
  - destruct (Nat.eqb (rhead r) X); [|reflexivity].
    rewrite Wb_NN. unfold psplits. rewrite bsum_filter, <- bsum_mul_l.
    apply bsum_ext; intros [u v] Hp.
    pose proof (splits_length _ _ Hp) as Hlen. cbn [fst snd length] in Hlen, Hh, Hf |- *.
    destruct u as [|u0 u]; [cbn [length Nat.eqb negb andb]; rewrite (H0 y Hy), smul_0_l, smul_0_r; reflexivity|].
    destruct v as [|v0 v]; [cbn [length Nat.eqb negb andb]; rewrite (H0 z Hz), !smul_0_r; reflexivity|].
    cbn [length Nat.eqb negb andb]. cbn [length] in Hlen.
    rewrite (IH h y (u0 :: u)), (IH h z (v0 :: v)) by (discriminate || (cbn [length]; lia)).
    apply (smul_assoc S).
Qed.

Theorem cky_W : forall (G : grammar S) (s : nat) (xs : list nat) (h : nat),
  in_cnf s G = true -> length xs < h ->
  W G h s xs = cky G s xs.
Proof.
  (* a CNF derivation of n >= 1 letters has height at most n (a chain of binary nodes above a
     preterminal) and the empty string needs height 1: length xs < h covers both *)
  intros G s xs h Hc Hl. destruct xs as [|a t].
  - destruct h as [|h]; [inversion Hl|]. apply cnf_W_empty_start. exact Hc.
  - apply (cnf_W_ckyf G s Hc); [discriminate|apply Nat.lt_le_incl, Hl|apply le_n].
Qed.

End CkyProofs.

Print Assumptions W_perm.
Print Assumptions W_rename.
Print Assumptions separate_start_W.
Print Assumptions cky_W.
