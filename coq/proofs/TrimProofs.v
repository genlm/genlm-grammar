(* Bottom-up trimming, CFG.cotrim = trim(bottomup_only=True) of cfg.py.  [generating G] is exactly the set of
   productive nonterminals; a nonterminal outside it has weight zero on every string at every height; so
   [cotrim], which drops the rules that mention such a nonterminal, changes no weight.
   cfg.py grows the set C with a worklist over the rules indexed by body symbol, model/Transform.v by S |G|
   sweeps of the whole rule list.  Only the resulting set enters the trimmed grammar, and [generating_spec]
   characterises it without reference to the order of discovery: the least set closed under the rules.
   Also: what the structural checkers of model/Transform.v decide. *)
From Coq Require Import List Arith Bool Lia.
From GV.lib Require Import Semiring BigSum.
From GV.model Require Import Cfg Transform.
From GV.model Require TopDown.
From GV.proofs Require Import Closure.
From GV.proofs Require Export CfgTrees.
Import ListNotations.
Local Open Scope sr_scope.

(* the nonterminals of a body, which both reachability searches add (UsefulProofs.v, ReachProofs.v); model/Deriv.v
   has the same function under the same name, and the two lemmas apply to it by conversion *)
Lemma body_nts_In (b : list sym) (Y : nat) : In Y (TopDown.body_nts b) <-> In (N Y) b.
Proof.
  unfold TopDown.body_nts. rewrite in_flat_map. split.
  - intros [[a|x] [Hy H]]; [destruct H|]. destruct H as [<-|[]]. exact Hy.
  - intros H. exists (N Y). split; [exact H|left; reflexivity].
Qed.

Lemma body_nts_length (b : list sym) : length (TopDown.body_nts b) <= length b.
Proof. induction b as [|[a|x] t IH]; simpl; lia. Qed.

Section TrimProofs.
Variable S : SR.

Inductive productive (G : grammar S) : nat -> Prop :=
| prod_rule : forall r, In r G -> (forall y, In (N y) (rbody r) -> productive G y) -> productive G (rhead r).

Lemma gen_sym_all (C : list nat) (body : list sym) :
  forallb (gen_sym C) body = true <-> (forall y, In (N y) body -> In y C).
Proof.
  split.
  - intros H y Hy. apply mem_spec. exact (proj1 (forallb_forall _ _) H (N y) Hy).
  - intros H. apply forallb_forall. intros [a|y] Hy; simpl; [reflexivity|]. apply mem_spec, H, Hy.
Qed.

Lemma gen_sym_not_all (C : list nat) (body : list sym) :
  forallb (gen_sym C) body = false -> exists y, In (N y) body /\ ~ In y C.
Proof.
  induction body as [|s t IH]; simpl; [discriminate|]. destruct (gen_sym C s) eqn:E; simpl.
  - intros H. destruct (IH H) as [y [Hy Fy]]. exists y. split; [right; exact Hy|exact Fy].
  - intros _. destruct s as [a|y]; [discriminate|]. exists y. split; [left; reflexivity|apply mem_false, E].
Qed.

Definition closed (G : grammar S) (C : list nat) : Prop :=
  forall r, In r G -> forallb (gen_sym C) (rbody r) = true -> In (rhead r) C.

(* the search as a saturation: a rule asks for its head once its body lies inside C *)

Definition gen_guard (C : list nat) (r : rule S) : bool := forallb (gen_sym C) (rbody r).
Definition gen_tgt (r : rule S) : list nat := [rhead r].

Lemma gen_pass_sat (G : grammar S) C : gen_pass G C = sat_pass gen_guard gen_tgt G C.
Proof.
  apply fold_left_ext. intros C' r. unfold sat_step, gen_guard, gen_tgt, add1. simpl.
  destruct (forallb (gen_sym C') (rbody r)), (existsb (Nat.eqb (rhead r)) C'); reflexivity.
Qed.

Lemma gen_iter_sat (G : grammar S) : forall n C, gen_iter G n C = sat_iter gen_guard gen_tgt G n C.
Proof. apply (sat_iter_unique _ _ _ (gen_pass G)); [apply gen_pass_sat|reflexivity|reflexivity]. Qed.

Lemma gen_bound (G : grammar S) : sat_bound gen_guard gen_tgt G (map rhead G).
Proof. intros C r Hr _ _ x [<-|[]]. apply in_map, Hr. Qed.

Theorem generating_sound : forall (G : grammar S) X, In X (generating G) -> productive G X.
Proof.
  intros G. unfold generating. rewrite gen_iter_sat. apply sat_iter_sound; [|intros y []].
  intros C r x Hr HC Hb [<-|[]]. apply prod_rule; [exact Hr|].
  intros y Hy. apply HC. exact (proj1 (gen_sym_all C (rbody r)) Hb y Hy).
Qed.

Lemma gen_pass_incl (G : grammar S) C : incl C (gen_pass G C).
Proof. rewrite gen_pass_sat. apply extends_incl, sat_pass_extends. Qed.

Theorem generating_closed : forall (G : grammar S), closed G (generating G).
Proof.
  intros G r Hr Hb. unfold generating in *. rewrite gen_iter_sat in *.
  apply (sat_iter_closed _ _ G _ (gen_bound G) _ [] (NoDup_nil _) (incl_nil_l _)) with (a := r);
    [rewrite map_length; simpl; lia|exact Hr|exact Hb|left; reflexivity].
Qed.

(* the generating set is duplicate-free and made of heads, so it is no longer than the rule list *)
Lemma generating_length (G : grammar S) : length (generating G) <= length G.
Proof.
  rewrite <- (map_length rhead G). unfold generating. rewrite gen_iter_sat.
  apply NoDup_incl_length; [apply sat_iter_NoDup, NoDup_nil|apply sat_iter_bound; [apply gen_bound|apply incl_nil_l]].
Qed.

Lemma closed_complete (G : grammar S) C : closed G C -> forall X, productive G X -> In X C.
Proof.
  intros Hcl X HX. induction HX as [r Hr _ IH].
  apply Hcl; [assumption|]. apply gen_sym_all. exact IH.
Qed.

Theorem generating_complete_if_closed : forall (G : grammar S),
  closed G (generating G) -> forall X, productive G X -> In X (generating G).
Proof. intros G. apply closed_complete. Qed.

Theorem generating_complete : forall (G : grammar S) X, productive G X -> In X (generating G).
Proof. intros G. apply closed_complete, generating_closed. Qed.

Theorem generating_spec : forall (G : grammar S) X, In X (generating G) <-> productive G X.
Proof. intros G X; split; [apply generating_sound|apply generating_complete]. Qed.

Lemma Wb_zero (f : nat -> list nat -> S) (y : nat) :
  (forall ys, f y ys = 0) -> forall body, In (N y) body -> forall xs, Wb f body xs = 0.
Proof.
  intros Hf body. induction body as [|s rest IH]; intros Hin xs; [destruct Hin|].
  destruct s as [a|Y]; simpl.
  - destruct Hin as [Hin|Hin]; [discriminate|].
    destruct xs as [|b xs']; [reflexivity|]. destruct (Nat.eqb a b); [|reflexivity].
    apply IH; assumption.
  - apply bsum_zero. intros p _.
    destruct Hin as [Hin|Hin].
    + injection Hin as ->. rewrite Hf. apply smul_0_l.
    + rewrite (IH Hin). apply smul_0_r.
Qed.

Lemma W_zero_of_closed (G : grammar S) (C : list nat) :
  closed G C -> forall h X xs, ~ In X C -> W G h X xs = 0.
Proof.
  intros Hcl h. induction h as [|h' IH]; intros X xs HX; [reflexivity|].
  simpl. apply bsum_zero. intros r Hr.
  destruct (Nat.eqb (rhead r) X) eqn:E; [|reflexivity].
  apply Nat.eqb_eq in E. subst X.
  destruct (forallb (gen_sym C) (rbody r)) eqn:Eb; [destruct (HX (Hcl r Hr Eb))|].
  destruct (gen_sym_not_all C (rbody r) Eb) as [y [Hy Fy]].
  rewrite (Wb_zero (W G h') y (fun ys => IH y ys Fy) (rbody r) Hy xs). apply smul_0_r.
Qed.

Lemma W_zero_of_closed_complement (G : grammar S) : forall (C : list nat),
  (forall X, In X C -> productive G X) ->
  (forall r, In r G -> forallb (gen_sym C) (rbody r) = true -> In (rhead r) C) ->
  forall h X xs, ~ In X C -> W G h X xs = 0.
Proof. intros C _. apply W_zero_of_closed. Qed.

Theorem nongenerating_W_zero : forall (G : grammar S) X,
  ~ In X (generating G) -> forall h xs, W G h X xs = 0.
Proof. intros G X HX h xs. exact (W_zero_of_closed G _ (generating_closed G) h X xs HX). Qed.

Theorem nonproductive_W_zero : forall (G : grammar S) X,
  ~ productive G X -> forall h xs, W G h X xs = 0.
Proof.
  intros G X HX. apply nongenerating_W_zero. intros H. apply HX, generating_sound, H.
Qed.

(* Kept is a set of nonterminals such that a rule with head in Kept either passes the filter, and then its body
   stays inside Kept, or mentions a nonterminal all of whose weights are zero: filtering changes no weight of Kept *)
Lemma filter_W (G : grammar S) (p : rule S -> bool) (Kept : nat -> Prop) :
  (forall r, In r G -> Kept (rhead r) ->
     if p r then forall Y, In (N Y) (rbody r) -> Kept Y
     else exists Y, In (N Y) (rbody r) /\ forall h ys, W G h Y ys = 0) ->
  forall h X xs, Kept X -> W (filter p G) h X xs = W G h X xs.
Proof.
  intros H h. induction h as [|h' IH]; intros X xs HX; [reflexivity|].
  simpl. rewrite bsum_filter. apply bsum_ext. intros r Hr.
  destruct (Nat.eqb (rhead r) X) eqn:E; [|destruct (p r); reflexivity].
  apply Nat.eqb_eq in E. subst X. specialize (H r Hr HX). destruct (p r).
  - f_equal. apply Wb_ext_in. intros Y ys HY. apply IH, H, HY.
  - destruct H as [Y [HY HZ]]. rewrite (Wb_zero (W G h') Y (HZ h') (rbody r) HY xs). symmetry. apply smul_0_r.
Qed.

Theorem cotrim_W : forall (G : grammar S) h X xs, W (cotrim G) h X xs = W G h X xs.
Proof.
  intros G h X xs. apply (filter_W G _ (fun _ => True)); [|exact I]. intros r Hr _.
  destruct (forallb (gen_sym (generating G)) (rbody r)) eqn:Eb.
  - rewrite (proj2 (mem_spec _ _) (generating_closed G r Hr Eb)). simpl. trivial.
  - rewrite andb_false_r. destruct (gen_sym_not_all _ _ Eb) as [Y [HY HN]].
    exists Y. split; [exact HY|]. intros h' ys. apply nongenerating_W_zero, HN.
Qed.

Theorem cotrim_rules : forall (G : grammar S) r, In r (cotrim G) <->
  In r G /\ In (rhead r) (generating G) /\ (forall y, In (N y) (rbody r) -> In y (generating G)).
Proof.
  intros G r. unfold cotrim. cbv zeta. split.
  - intros H. apply filter_In in H. destruct H as [Hr Hb]. apply andb_prop in Hb. destruct Hb as [Hh Hb].
    exact (conj Hr (conj (proj1 (mem_spec _ _) Hh) (proj1 (gen_sym_all _ _) Hb))).
  - intros [Hr [Hh Hb]]. apply filter_In. split; [exact Hr|].
    apply andb_true_intro. split; [apply mem_spec, Hh|apply gen_sym_all, Hb].
Qed.

Theorem arity_le2_spec : forall (G : grammar S),
  arity_le2 G = true <-> (forall r, In r G -> length (rbody r) <= 2).
Proof.
  intros G. unfold arity_le2. split.
  - intros H r Hr. apply Nat.leb_le. exact (proj1 (forallb_forall _ _) H r Hr).
  - intros H. apply forallb_forall. intros r Hr. apply Nat.leb_le, H, Hr.
Qed.

Theorem no_unary_spec : forall (G : grammar S),
  no_unary G = true <-> (forall r y, In r G -> rbody r <> [N y]).
Proof.
  intros G. unfold no_unary. rewrite forallb_forall. split.
  - intros H r y Hr E. specialize (H r Hr). rewrite E in H. discriminate.
  - intros H r Hr. specialize (fun y => H r y Hr).
    destruct (rbody r) as [|[a|x] [|s t]]; try reflexivity.
    exfalso. apply (H x). reflexivity.
Qed.

Theorem no_nullary_except_spec : forall s (G : grammar S),
  no_nullary_except s G = true <-> (forall r, In r G -> rbody r = [] -> rhead r = s).
Proof.
  intros s G. unfold no_nullary_except. rewrite forallb_forall. split.
  - intros H r Hr E. specialize (H r Hr). rewrite E in H. apply Nat.eqb_eq; assumption.
  - intros H r Hr. specialize (H r Hr).
    destruct (rbody r) as [|s0 t]; [|reflexivity]. apply Nat.eqb_eq. apply H; reflexivity.
Qed.

Theorem on_rhs_spec : forall s (G : grammar S),
  on_rhs s G = true <-> (exists r, In r G /\ In (N s) (rbody r)).
Proof.
  intros s G. unfold on_rhs. rewrite existsb_exists. split.
  - intros [r [Hr H]]. apply existsb_exists in H. destruct H as [y [Hy E]].
    apply sym_eqb_eq in E. subst y. exists r; split; assumption.
  - intros [r [Hr H]]. exists r; split; [assumption|].
    apply existsb_exists. exists (N s); split; [assumption|]. apply sym_eqb_eq; reflexivity.
Qed.

Theorem start_not_on_rhs_spec : forall s (G : grammar S),
  start_not_on_rhs s G = true <-> (forall r, In r G -> ~ In (N s) (rbody r)).
Proof.
  intros s G. unfold start_not_on_rhs. split.
  - intros H r Hr Hin.
    rewrite (proj2 (on_rhs_spec s G) (ex_intro _ r (conj Hr Hin))) in H. discriminate H.
  - intros H. destruct (on_rhs s G) eqn:E; [|reflexivity].
    apply on_rhs_spec in E. destruct E as [r [Hr Hin]]. exfalso. apply (H r Hr Hin).
Qed.

Lemma no_T_all (b : list sym) :
  forallb (fun y => match y with T _ => false | N _ => true end) b = true <-> forall a, ~ In (T a) b.
Proof.
  split.
  - intros Hf a Ha. discriminate (proj1 (forallb_forall _ _) Hf (T a) Ha).
  - intros Hn. apply forallb_forall. intros [a|x] Hy; [destruct (Hn a Hy)|reflexivity].
Qed.

Theorem terminals_separated_spec : forall (G : grammar S),
  terminals_separated G = true <->
  (forall r, In r G -> (exists a, rbody r = [T a]) \/ (forall a, ~ In (T a) (rbody r))).
Proof.
  intros G. unfold terminals_separated. split.
  - intros H r Hr. pose proof (proj1 (forallb_forall _ _) H r Hr) as Hb. cbv beta in Hb.
    destruct (rbody r) as [|[a|x] [|s t]]; try (right; apply no_T_all; exact Hb).
    left. exists a. reflexivity.
  - intros H. apply forallb_forall. intros r Hr. destruct (H r Hr) as [[a ->]|Hn]; [reflexivity|].
    apply no_T_all in Hn. destruct (rbody r) as [|[a|x] [|s t]]; try exact Hn. reflexivity.
Qed.

End TrimProofs.
Arguments productive {S} G _. Arguments prod_rule {S} G r _ _.
Arguments closed {S} G C.

Print Assumptions generating_sound.
Print Assumptions generating_complete_if_closed.
Print Assumptions generating_closed.
Print Assumptions generating_complete.
Print Assumptions generating_spec.
Print Assumptions W_zero_of_closed_complement.
Print Assumptions nongenerating_W_zero.
Print Assumptions nonproductive_W_zero.
Print Assumptions cotrim_W.
Print Assumptions cotrim_rules.
Print Assumptions arity_le2_spec.
Print Assumptions no_unary_spec.
Print Assumptions no_nullary_except_spec.
Print Assumptions on_rhs_spec.
Print Assumptions start_not_on_rhs_spec.
Print Assumptions terminals_separated_spec.
