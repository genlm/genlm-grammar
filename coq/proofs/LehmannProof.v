(* Lehmann/Kleene elimination (WeightedGraph._closure) computes a solution of
   K = I + A K and K = I + K A over every star semiring, provided the pivots
   met by the elimination lie in the domain of star. *)
From Coq Require Import List Arith Bool Permutation.
From GV.lib Require Import Semiring BigSum.
From GV.model Require Import Linear.
From GV.proofs Require Import Closure.
Import ListNotations.
Local Open Scope sr_scope.

Section LehmannProof.
Variable S : StarSR.
Add Ring SRing : (sth S).


Lemma mget_row (f : nat -> nat -> S) (i i' k : nat) (C : list nat) (rest : mat S) :
  mget (map (fun k' => (i', k', f i' k')) C ++ rest) i k
  = if Nat.eqb i i' && existsb (Nat.eqb k) C then f i k else mget rest i k.
Proof.
  induction C as [|a C IH]; simpl; [rewrite andb_false_r; reflexivity|].
  rewrite IH. destruct (Nat.eqb_spec i i') as [->|]; simpl; [|reflexivity].
  destruct (Nat.eqb_spec k a) as [->|]; reflexivity.
Qed.

Lemma mget_tab (f : nat -> nat -> S) (i k : nat) (C R : list nat) :
  mget (flat_map (fun i' => map (fun k' => (i', k', f i' k')) C) R) i k
  = if existsb (Nat.eqb i) R && existsb (Nat.eqb k) C then f i k else 0.
Proof.
  induction R as [|a R IH]; simpl; [reflexivity|].
  rewrite mget_row, IH. destruct (Nat.eqb i a); simpl; [|reflexivity].
  destruct (existsb (Nat.eqb k) C); [reflexivity|]. rewrite andb_false_r; reflexivity.
Qed.

Lemma mget_tabulate : forall (nodes : list nat) (f : nat -> nat -> S) i k,
  In i nodes -> In k nodes -> mget (tabulate nodes f) i k = f i k.
Proof.
  intros nodes f i k Hi Hk. unfold tabulate. rewrite mget_tab.
  apply mem_spec in Hi, Hk. rewrite Hi, Hk. reflexivity.
Qed.

Lemma mget_tabulate_out : forall (nodes : list nat) (f : nat -> nat -> S) i k,
  ~ (In i nodes /\ In k nodes) -> mget (tabulate nodes f) i k = 0.
Proof.
  intros nodes f i k Hn. unfold tabulate. rewrite mget_tab.
  destruct (existsb (Nat.eqb i) nodes && existsb (Nat.eqb k) nodes) eqn:E; [|reflexivity].
  apply andb_prop in E as [Ei Ek]. apply mem_spec in Ei, Ek.
  destruct (Hn (conj Ei Ek)).
Qed.

Lemma mget_elim_step (nodes : list nat) (m : nat) (B : mat S) i k :
  In i nodes -> In k nodes ->
  mget (elim_step nodes m B) i k
  = mget B i k + mget B i m * sstar S (mget B m m) * mget B m k.
Proof. intros Hi Hk. unfold elim_step. rewrite mget_tabulate by assumption. reflexivity. Qed.

Fixpoint pivots_defined (nodes : list nat) (todo : list nat) (old : mat S) : Prop :=
  match todo with
  | [] => True
  | j :: t => sdef S (mget old j j) /\ pivots_defined nodes t (elim_step nodes j old)
  end.

Definition defined (nodes : list nat) (A : mat S) : Prop :=
  pivots_defined nodes nodes (tabulate nodes (mget A)).

Lemma fid_refl i : @fid S i i = 1.
Proof. unfold fid. rewrite Nat.eqb_refl. reflexivity. Qed.

Lemma fid_neq i k : i <> k -> @fid S i k = 0.
Proof. intros H. unfold fid. apply Nat.eqb_neq in H. rewrite H. reflexivity. Qed.

Lemma fid_sym i k : @fid S i k = fid k i.
Proof. unfold fid. rewrite Nat.eqb_sym. reflexivity. Qed.

Lemma bsum_fid (l : list nat) (f : nat -> S) k :
  NoDup l -> In k l -> bsum l (fun j => f j * fid j k) = f k.
Proof.
  intros Hnd Hk.
  rewrite (bsum_single S l k) by (try assumption; intros j _ Hj; rewrite fid_neq by exact Hj; apply smul_0_r).
  rewrite fid_refl. apply smul_1_r.
Qed.

Lemma bsum_fid_l (l : list nat) (g : nat -> S) i :
  NoDup l -> In i l -> bsum l (fun j => fid i j * g j) = g i.
Proof.
  intros Hnd Hi. rewrite <- (bsum_fid l g i Hnd Hi).
  apply bsum_ext; intros j _. rewrite fid_sym. apply smul_comm.
Qed.


(* Entry (i,k) of B, or of its transpose.  The elimination step updates both in the
   same way, so every equation about K = I + A K proved through [tget] also yields
   its mirror image K = I + K A. *)
Definition tget (t : bool) (B : mat S) (i k : nat) : S := if t then mget B k i else mget B i k.

Lemma tget_diag t (B : mat S) m : tget t B m m = mget B m m.
Proof. destruct t; reflexivity. Qed.

Lemma tget_restrict t nodes (A : mat S) i k : In i nodes -> In k nodes ->
  tget t (tabulate nodes (mget A)) i k = tget t A i k.
Proof. intros Hi Hk. destruct t; cbn [tget]; apply mget_tabulate; assumption. Qed.

Lemma tget_elim_step t nodes m (B : mat S) i k : In i nodes -> In k nodes ->
  tget t (elim_step nodes m B) i k
  = tget t B i k + tget t B i m * sstar S (mget B m m) * tget t B m k.
Proof.
  intros Hi Hk. destruct t; cbn [tget]; rewrite mget_elim_step by assumption; [ring|reflexivity].
Qed.

(* after eliminating the nodes J:  B = A + A_J B *)
Definition inv (t : bool) (nodes : list nat) (A : mat S) (J : list nat) (B : mat S) : Prop :=
  forall i k, In i nodes -> In k nodes ->
    tget t B i k = tget t A i k + bsum J (fun j => tget t A i j * tget t B j k).

(* s' stands for the occurrences of the star that are unfolded once *)
Lemma inv_alg (ak x am y bmk bmm s s' : S) :
  s' = 1 + bmm * s ->
  (ak + x) + (am + y) * s' * bmk = ak + (am * (bmk + bmm * s * bmk) + (x + y * (s' * bmk))).
Proof. intros ->. ring. Qed.

Lemma inv_step t nodes A m J B :
  In m nodes -> incl J nodes -> inv t nodes A J B -> sdef S (mget B m m) ->
  inv t nodes A (m :: J) (elim_step nodes m B).
Proof.
  intros Hm HJ Hinv Hdef i k Hi Hk.
  rewrite bsum_cons.
  rewrite !tget_elim_step, tget_diag by assumption.
  set (s := sstar S (mget B m m)).
  assert (Hs : s = 1 + mget B m m * s) by (apply star_unfold_l; exact Hdef).
  rewrite (bsum_ext S J _ (fun j => tget t A i j * tget t B j k
                                   + (tget t A i j * tget t B j m) * (s * tget t B m k))).
  2:{ intros j Hj. rewrite tget_elim_step by (try assumption; apply HJ; exact Hj).
      fold s. ring. }
  rewrite bsum_add, bsum_mul_r.
  rewrite (Hinv i k Hi Hk), (Hinv i m Hi Hm).
  apply inv_alg; exact Hs.
Qed.

(* a property kept by every elimination step holds of the result of the elimination *)
Lemma fold_inv (nodes : list nat) (P : list nat -> mat S -> Prop) :
  (forall m J B, In m nodes -> incl J nodes -> P J B -> sdef S (mget B m m) ->
                 P (m :: J) (elim_step nodes m B)) ->
  forall todo J B, incl todo nodes -> incl J nodes -> P J B ->
    pivots_defined nodes todo B ->
    P (rev todo ++ J) (fold_left (fun old j => elim_step nodes j old) todo B).
Proof.
  intros Hstep todo. induction todo as [|m t IH]; intros J B Ht HJ HP Hpd; simpl.
  - exact HP.
  - destruct Hpd as [Hd Hpd].
    assert (Hm : In m nodes) by (apply Ht; left; reflexivity).
    rewrite <- app_assoc. simpl. apply IH.
    + intros x Hx; apply Ht; right; exact Hx.
    + intros x [Hx|Hx]; [subst x; exact Hm|apply HJ; exact Hx].
    + apply Hstep; assumption.
    + exact Hpd.
Qed.

Lemma lehmann_trans_inv (nodes : list nat) (A : mat S) (P : list nat -> mat S -> Prop) :
  (forall m J B, In m nodes -> incl J nodes -> P J B -> sdef S (mget B m m) ->
                 P (m :: J) (elim_step nodes m B)) ->
  P [] (tabulate nodes (mget A)) -> defined nodes A -> P (rev nodes) (lehmann_trans nodes A).
Proof.
  intros Hstep H0 Hdef. rewrite <- (app_nil_r (rev nodes)).
  exact (fold_inv nodes P Hstep nodes [] _ (incl_refl _) (incl_nil_l _) H0 Hdef).
Qed.

Lemma lehmann_trans_t t nodes A : defined nodes A ->
  forall i k, In i nodes -> In k nodes ->
    tget t (lehmann_trans nodes A) i k
    = tget t A i k + bsum nodes (fun j => tget t A i j * tget t (lehmann_trans nodes A) j k).
Proof.
  intros Hdef i k Hi Hk.
  rewrite (bsum_perm S nodes (rev nodes) _ (Permutation_rev nodes)).
  apply (lehmann_trans_inv nodes A (inv t nodes A) (inv_step t nodes A)); try assumption.
  intros i' k' Hi' Hk'. rewrite bsum_nil, tget_restrict by assumption. symmetry. apply sadd_0_r.
Qed.

Lemma mget_lehmann nodes (A : mat S) i k : In i nodes -> In k nodes ->
  mget (lehmann nodes A) i k = mget (lehmann_trans nodes A) i k + fid i k.
Proof.
  intros Hi Hk. unfold lehmann. rewrite mget_tabulate by assumption.
  unfold fid. destruct (Nat.eqb i k); [reflexivity|symmetry; apply sadd_0_r].
Qed.

Lemma tget_lehmann t nodes (A : mat S) i k : In i nodes -> In k nodes ->
  tget t (lehmann nodes A) i k = tget t (lehmann_trans nodes A) i k + fid i k.
Proof.
  intros Hi Hk. destruct t; cbn [tget]; rewrite mget_lehmann by assumption;
    [rewrite fid_sym|]; reflexivity.
Qed.

Lemma lehmann_fixpoint_t t (nodes : list nat) (A : mat S) :
  NoDup nodes -> defined nodes A ->
  forall i k, In i nodes -> In k nodes ->
    tget t (lehmann nodes A) i k
    = fid i k + bsum nodes (fun j => tget t A i j * tget t (lehmann nodes A) j k).
Proof.
  intros Hnd Hdef i k Hi Hk.
  rewrite (bsum_ext S nodes _ (fun j => tget t A i j * tget t (lehmann_trans nodes A) j k
                                       + tget t A i j * fid j k)).
  2:{ intros j Hj. rewrite tget_lehmann by assumption. ring. }
  rewrite bsum_add, bsum_fid by assumption.
  rewrite tget_lehmann by assumption.
  rewrite (lehmann_trans_t t nodes A Hdef i k Hi Hk). ring.
Qed.

(* the equation read through the transpose is the mirror equation *)
Lemma mirror_eq (nodes : list nat) (A K : mat S) i k :
  tget true K k i = fid k i + bsum nodes (fun j => tget true A k j * tget true K j i) ->
  mget K i k = fid i k + bsum nodes (fun j => mget K i j * mget A j k).
Proof.
  intros H. cbn [tget] in H. rewrite H, fid_sym. apply f_equal, bsum_ext; intros j _. apply smul_comm.
Qed.

Theorem lehmann_fixpoint_l : forall (nodes : list nat) (A : mat S),
  NoDup nodes -> defined nodes A ->
  forall i k, In i nodes -> In k nodes ->
    mget (lehmann nodes A) i k
    = fid i k + bsum nodes (fun j => mget A i j * mget (lehmann nodes A) j k).
Proof. intros nodes A. exact (lehmann_fixpoint_t false nodes A). Qed.

Theorem lehmann_fixpoint_r : forall (nodes : list nat) (A : mat S),
  NoDup nodes -> defined nodes A ->
  forall i k, In i nodes -> In k nodes ->
    mget (lehmann nodes A) i k
    = fid i k + bsum nodes (fun j => mget (lehmann nodes A) i j * mget A j k).
Proof.
  intros nodes A Hnd Hdef i k Hi Hk.
  apply mirror_eq, lehmann_fixpoint_t; assumption.
Qed.

Theorem closure1_fixpoint : forall (i : nat) (A : mat S), sdef S (mget A i i) ->
  mget (closure1 i A) i i = 1 + mget A i i * mget (closure1 i A) i i /\
  mget (closure1 i A) i i = 1 + mget (closure1 i A) i i * mget A i i.
Proof.
  intros i A Hdef. unfold closure1. simpl. rewrite Nat.eqb_refl. simpl.
  split; [apply star_unfold_l|apply star_unfold_r]; exact Hdef.
Qed.

Lemma closure_fixpoint_t t (nodes : list nat) (A : mat S) : NoDup nodes ->
  (match nodes with [i] => sdef S (mget A i i) | _ => defined nodes A end) ->
  forall i k, In i nodes -> In k nodes ->
    tget t (closure nodes A) i k
    = fid i k + bsum nodes (fun j => tget t A i j * tget t (closure nodes A) j k).
Proof.
  intros Hnd Hdef i k Hi Hk.
  destruct nodes as [|a [|b r]].
  - contradiction.
  - destruct Hi as [<-|[]]. destruct Hk as [<-|[]].
    destruct (closure1_fixpoint a A Hdef) as [Hl _].
    unfold closure. rewrite bsum_cons, bsum_nil, !tget_diag, fid_refl.
    rewrite sadd_0_r. exact Hl.
  - apply lehmann_fixpoint_t; assumption.
Qed.

Theorem closure_fixpoint_l : forall (nodes : list nat) (A : mat S), NoDup nodes ->
  (match nodes with [i] => sdef S (mget A i i) | _ => defined nodes A end) ->
  forall i k, In i nodes -> In k nodes ->
    mget (closure nodes A) i k
    = fid i k + bsum nodes (fun j => mget A i j * mget (closure nodes A) j k).
Proof. intros nodes A. exact (closure_fixpoint_t false nodes A). Qed.

Theorem closure_fixpoint_r : forall (nodes : list nat) (A : mat S), NoDup nodes ->
  (match nodes with [i] => sdef S (mget A i i) | _ => defined nodes A end) ->
  forall i k, In i nodes -> In k nodes ->
    mget (closure nodes A) i k
    = fid i k + bsum nodes (fun j => mget (closure nodes A) i j * mget A j k).
Proof.
  intros nodes A Hnd Hdef i k Hi Hk.
  apply mirror_eq, closure_fixpoint_t; assumption.
Qed.

End LehmannProof.

Print Assumptions lehmann_fixpoint_l.
Print Assumptions lehmann_fixpoint_r.
Print Assumptions closure1_fixpoint.
Print Assumptions closure_fixpoint_l.
Print Assumptions closure_fixpoint_r.

(* a concrete defined instance over the rationals *)
From Coq Require Import BinInt.

Example lehmann_defined_example :
  defined QcStar [0%nat; 1%nat]
    [(0%nat, 1%nat, mkq 1 2); (1%nat, 0%nat, mkq 1 3); (1%nat, 1%nat, mkq 1 4)].
Proof.
  unfold defined. simpl.
  repeat split; intro H; apply (f_equal Qcanon.this) in H; vm_compute in H; discriminate H.
Qed.
Print Assumptions lehmann_defined_example.
