(* From the reference semantics to the equation system: whenever every string weight is a
   finite (stabilising) derivation sum, the string-weight function solves the grammar's
   equations (solves G f).  Corollaries: uniqueness of stable values, values returned by the
   executable tabulation `lang` form a solution, and acyclic (ranked) grammars are stable
   everywhere. *)
From Coq Require Import List Lia.
From GV.lib Require Import Semiring.
From GV.model Require Import Cfg.
From GV.proofs Require Import CkyProofs FoldProofs CfgChart.
Import ListNotations.
Local Open Scope sr_scope.

(* ys is a contiguous piece of xs *)
Definition infix {A} (ys xs : list A) : Prop := exists pre post, xs = pre ++ ys ++ post.

Definition prefixes {A} (l : list A) : list (list A) := map fst (splits l).
Definition suffixes {A} (l : list A) : list (list A) := map snd (splits l).
(* all the prefixes of all the suffixes *)
Definition infixes {A} (xs : list A) : list (list A) := flat_map prefixes (suffixes xs).

Lemma infix_refl {A} (xs : list A) : infix xs xs.
Proof. exists [], []. cbn [app]. rewrite app_nil_r. reflexivity. Qed.

Lemma infix_infixes {A} (ys xs : list A) : infix ys xs -> In ys (infixes xs).
Proof.
  intros [pre [post E]]. unfold infixes. apply in_flat_map.
  exists (ys ++ post). split.
  - unfold suffixes. apply in_map_iff. exists (pre, ys ++ post).
    split; [reflexivity|]. rewrite E. apply in_splits.
  - unfold prefixes. apply in_map_iff. exists (ys, post).
    split; [reflexivity|]. apply in_splits.
Qed.

Lemma infixes_infix {A} (ys xs : list A) : In ys (infixes xs) -> infix ys xs.
Proof.
  unfold infixes, prefixes, suffixes. intros Hin.
  apply in_flat_map in Hin. destruct Hin as [suf [Hsuf Hys]].
  apply in_map_iff in Hsuf. destruct Hsuf as [p [Ep Hp]].
  apply in_map_iff in Hys. destruct Hys as [q [Eq Hq]].
  apply splits_app in Hp. apply splits_app in Hq.
  exists (fst p), (snd q). rewrite <- Hp, Ep, <- Hq, Eq. reflexivity.
Qed.

(* a finite family of eventually-true properties is eventually true uniformly *)
Lemma uniform_bound {A} (Q : A -> nat -> Prop) :
  (forall a, exists H, forall h, H <= h -> Q a h) ->
  forall l : list A, exists H, forall h, H <= h -> forall a, In a l -> Q a h.
Proof.
  intros HQ. induction l as [|a l IH].
  - exists O. intros h _ a [].
  - destruct IH as [H1 IH]. destruct (HQ a) as [H2 Ha].
    exists (Nat.max H1 H2). intros h Hh b [<-|Hb].
    + apply Ha. lia.
    + apply IH; [lia|exact Hb].
Qed.

Section StableSolves.
Variable S : SR.
Add Ring StableRing : (sth S).

Local Notation Sn := Datatypes.S.

Lemma stable_uniform (G : grammar S) (f : nat -> list nat -> S) :
  (forall Y ys, stable S G Y ys (f Y ys)) ->
  forall (nts : list nat) (xs : list nat),
  exists H, forall h, H <= h -> forall Y ys, In Y nts -> In ys (infixes xs) -> W G h Y ys = f Y ys.
Proof.
  intros Hst nts xs.
  destruct (uniform_bound (fun (a : nat * list nat) h => W G h (fst a) (snd a) = f (fst a) (snd a))
              (fun a => Hst (fst a) (snd a)) (list_prod nts (infixes xs))) as [H HH].
  exists H. intros h Hh Y ys HY Hys.
  apply (HH h Hh (Y, ys)). apply in_prod; assumption.
Qed.

(* the nonterminals occurring in the bodies of G *)
Definition body_nts (body : list sym) : list nat :=
  flat_map (fun s => match s with N Y => [Y] | T _ => [] end) body.
Definition gnts (G : grammar S) : list nat := flat_map (fun r => body_nts (rbody r)) G.

Lemma in_gnts (G : grammar S) r Y : In r G -> In (N Y) (rbody r) -> In Y (gnts G).
Proof.
  intros Hr HY. unfold gnts. apply in_flat_map. exists r. split; [exact Hr|].
  unfold body_nts. apply in_flat_map. exists (N Y). split; [exact HY|left; reflexivity].
Qed.

Theorem stable_solves : forall (G : grammar S) (f : nat -> list nat -> S),
  (forall X xs, stable S G X xs (f X xs)) -> solves S G f.
Proof.
  intros G f Hst X xs.
  (* the equation at (X, xs) only consults f at body nonterminals and pieces of xs: finitely
     many pairs, so one height H1 serves them all; at height max H1 H2 + 1 the unfolding of W
     is the equation *)
  destruct (stable_uniform G f Hst (gnts G) xs) as [H1 HH1].
  destruct (Hst X xs) as [H2 HH2].
  set (H := Nat.max H1 H2).
  rewrite <- (HH2 (Sn H)) by (unfold H; lia).
  rewrite W_S. apply bsum_head_ext. intros r Hr _.
  f_equal. apply Wb_ext_infix. intros Y ys pre post HY E.
  apply HH1.
  - unfold H; lia.
  - apply (in_gnts G r Y Hr HY).
  - apply infix_infixes. exists pre, post. exact E.
Qed.

Corollary stable_value_unique : forall (G : grammar S) X xs (v v' : S),
  stable S G X xs v -> stable S G X xs v' -> v = v'.
Proof.
  intros G X xs v v' [H1 HH1] [H2 HH2].
  rewrite <- (HH1 (Nat.max H1 H2)) by lia.
  rewrite <- (HH2 (Nat.max H1 H2)) by lia. reflexivity.
Qed.

Corollary lang_solves : forall (G : grammar S) (f : nat -> list nat -> S),
  (forall X xs, exists fuel, lang G fuel X xs = Some (f X xs)) -> solves S G f.
Proof.
  intros G f Hl. apply stable_solves. intros X xs.
  destruct (Hl X xs) as [fuel E]. exact (lang_stable S G fuel X xs (f X xs) E).
Qed.

(* every body nonterminal has a strictly smaller rank than the head *)
Definition ranked (r : nat -> nat) (G : grammar S) : Prop :=
  forall rl Y, In rl G -> In (N Y) (rbody rl) -> r Y < r (rhead rl).

Lemma ranked_W_const_aux (r : nat -> nat) (G : grammar S) : ranked r G ->
  forall n X, r X < n -> forall h, r X < h -> forall xs, W G h X xs = W G (Sn (r X)) X xs.
Proof.
  (* n only bounds the rank, to have something to induct on *)
  intros Hrk. induction n as [|n IH]; intros X Hn h Hh xs; [lia|].
  destruct h as [|h']; [lia|].
  rewrite !W_S. apply bsum_head_ext. intros rl Hrl E.
  f_equal. apply Wb_ext_in. intros Y ys HY.
  pose proof (Hrk rl Y Hrl HY) as Hlt. rewrite E in Hlt.
  rewrite (IH Y) by lia.
  symmetry. apply (IH Y); lia.
Qed.

Lemma ranked_W_const (r : nat -> nat) (G : grammar S) : ranked r G ->
  forall X h xs, r X < h -> W G h X xs = W G (Sn (r X)) X xs.
Proof.
  intros Hrk X h xs Hh. apply (ranked_W_const_aux r G Hrk (Sn (r X)) X); lia.
Qed.

Theorem ranked_stable : forall (r : nat -> nat) (G : grammar S), ranked r G ->
  forall X xs, stable S G X xs (W G (Sn (r X)) X xs).
Proof.
  intros r G Hrk X xs. exists (Sn (r X)). intros h Hh.
  apply ranked_W_const; [exact Hrk|lia].
Qed.

Theorem ranked_solves : forall (r : nat -> nat) (G : grammar S), ranked r G ->
  solves S G (fun X xs => W G (Sn (r X)) X xs).
Proof.
  intros r G Hrk. apply stable_solves. intros X xs. apply ranked_stable. exact Hrk.
Qed.

(* with a uniform height: any bound on the ranks of the heads will do *)
Corollary ranked_solves_bound : forall (r : nat -> nat) (G : grammar S) (B : nat), ranked r G ->
  (forall X, r X < B) -> solves S G (W G B).
Proof.
  intros r G B Hrk HB X xs.
  rewrite (ranked_W_const r G Hrk X B xs (HB X)).
  rewrite (ranked_solves r G Hrk X xs). apply bsum_head_ext. intros rl _ _.
  f_equal. apply Wb_ext. intros Y ys. symmetry. apply ranked_W_const; [exact Hrk|apply HB].
Qed.

End StableSolves.

Print Assumptions stable_uniform.
Print Assumptions stable_solves.
Print Assumptions stable_value_unique.
Print Assumptions lang_solves.
Print Assumptions ranked_stable.
Print Assumptions ranked_solves.
Print Assumptions ranked_solves_bound.
