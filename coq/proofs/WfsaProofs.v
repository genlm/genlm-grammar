(* Weighted automata.  The forward algorithm computes the declarative path sum, which is
   the sum over explicit accepting paths.  A machine that contains a copy of another one
   ([embeds]) has the other's path sums at the copied states: renaming and union follow.
   On labelled arcs the epsilon-aware step of [pwe] is a plain reading step ([rstep]), so
   [pwe] is [pw] on epsilon-free machines.  Reversal: the forward pass of the reversed
   machine gives the backward values of the original. *)
From Coq Require Import List Arith Bool Lia.
From GV.lib Require Import Semiring BigSum.
From GV.model Require Import Wfsa WfsaEps.
Import ListNotations.
Local Open Scope sr_scope.

Section WfsaProofs.
Variable S : SR.
Add Ring SRing : (sth S).

Lemma eqb_inj (f : nat -> nat) (Hf : forall p q, f p = f q -> p = q) p q :
  Nat.eqb (f p) (f q) = Nat.eqb p q.
Proof.
  destruct (Nat.eqb p q) eqn:E.
  - apply Nat.eqb_eq in E; subst; apply Nat.eqb_refl.
  - apply Nat.eqb_neq in E. apply Nat.eqb_neq. intro H; apply E, Hf, H.
Qed.

Lemma asrc_mk (s : nat) l (d : nat) (w : S) : asrc (s, l, d, w) = s. Proof. reflexivity. Qed.
Lemma albl_mk (s : nat) l (d : nat) (w : S) : albl (s, l, d, w) = l. Proof. reflexivity. Qed.
Lemma adst_mk (s : nat) l (d : nat) (w : S) : adst (s, l, d, w) = d. Proof. reflexivity. Qed.
Lemma awt_mk (s : nat) l (d : nat) (w : S) : awt (s, l, d, w) = w. Proof. reflexivity. Qed.

Lemma wget_app (u v : wvec S) q : wget (u ++ v) q = wget u q + wget v q.
Proof. unfold wget. apply bsum_app. Qed.

Lemma wget_notin (v : wvec S) q : ~ In q (map fst v) -> wget v q = 0.
Proof.
  intros Hq. apply bsum_zero; intros e He.
  destruct (Nat.eqb_spec q (fst e)) as [E|_]; [|reflexivity].
  exfalso. apply Hq. rewrite E. apply in_map, He.
Qed.

Lemma wget_rename (f : nat -> nat) (Hf : forall p q, f p = f q -> p = q) (v : wvec S) q :
  wget (map (fun e => (f (fst e), snd e)) v) (f q) = wget v q.
Proof.
  unfold wget. rewrite bsum_map. apply bsum_ext; intros e _. cbn [fst snd].
  rewrite (eqb_inj f Hf). reflexivity.
Qed.

Lemma wget_rename_off (f : nat -> nat) (v : wvec S) x : (forall p, Nat.eqb x (f p) = false) ->
  wget (map (fun e => (f (fst e), snd e)) v) x = 0.
Proof.
  intros Hx. unfold wget. rewrite bsum_map. apply bsum_zero; intros e _. cbn [fst snd].
  rewrite Hx. reflexivity.
Qed.

Lemma wget_mul (v : wvec S) q (c : S) :
  bsum v (fun e => if Nat.eqb (fst e) q then snd e * c else 0) = wget v q * c.
Proof.
  unfold wget. rewrite <- bsum_mul_r. apply bsum_ext; intros e _.
  rewrite (Nat.eqb_sym q (fst e)). symmetry. apply smul_if_l.
Qed.

Definition dot (v : wvec S) (g : nat -> S) : S := bsum v (fun e => snd e * g (fst e)).

(* a sum of vector entries looked up by key is the vector against the sums regrouped by key *)
Lemma dot_wget {X} (l : list X) (k : X -> nat) (c : X -> S) (v : wvec S) :
  bsum l (fun x => wget v (k x) * c x) = dot v (fun q => bsum l (fun x => if Nat.eqb q (k x) then c x else 0)).
Proof.
  unfold dot, wget.
  transitivity (bsum l (fun x => bsum v (fun e => if Nat.eqb (k x) (fst e) then snd e * c x else 0))).
  - apply bsum_ext; intros x _. rewrite <- bsum_mul_r. apply bsum_ext; intros e _. apply smul_if_l.
  - rewrite bsum_swap. apply bsum_ext; intros e _. rewrite <- bsum_mul_l.
    apply bsum_ext; intros x _. rewrite (Nat.eqb_sym (fst e)). symmetry. apply smul_if_r.
Qed.

Lemma dot_fstep (m : wfsa S) (v : wvec S) (a : nat) (g : nat -> S) :
  dot (fstep m v a) g =
  dot v (fun q => bsum (warcs m) (fun ar =>
     if Nat.eqb (asrc ar) q && lbl_eqb (albl ar) a then awt ar * g (adst ar) else 0)).
Proof.
  unfold dot at 1, fstep. rewrite bsum_flat_map.
  transitivity (bsum (warcs m) (fun ar =>
      wget v (asrc ar) * (if lbl_eqb (albl ar) a then awt ar * g (adst ar) else 0))).
  - apply bsum_ext; intros ar _.
    destruct (lbl_eqb (albl ar) a); [rewrite bsum_cons, bsum_nil; cbn [fst snd]|rewrite bsum_nil]; ring.
  - rewrite dot_wget. unfold dot. apply bsum_ext; intros e _. apply f_equal, bsum_ext; intros ar _.
    rewrite (Nat.eqb_sym (fst e)). destruct (Nat.eqb (asrc ar) (fst e)); reflexivity.
Qed.

Lemma dot_final (m : wfsa S) (v : wvec S) :
  bsum (wfinal m) (fun e => wget v (fst e) * snd e) = dot v (fun q => wget (wfinal m) q).
Proof. exact (dot_wget (wfinal m) fst snd v). Qed.

Lemma forward_gen (m : wfsa S) (xs : list nat) : forall v : wvec S,
  bsum (wfinal m) (fun e => wget (fold_left (fstep m) xs v) (fst e) * snd e)
  = dot v (fun q => pw m q xs).
Proof.
  induction xs as [|a xs IH]; intros v.
  - cbn [fold_left]. apply dot_final.
  - cbn [fold_left]. rewrite IH, dot_fstep. reflexivity.
Qed.

Theorem forward_pathsum : forall (m : wfsa S) (xs : list nat), weight m xs = pathsum m xs.
Proof. intros m xs. unfold weight, fwd, pathsum. apply forward_gen. Qed.

Lemma pw_paths (m : wfsa S) (xs : list nat) : forall q,
  pw m q xs = bsum (paths_from m q xs) path_weight.
Proof.
  induction xs as [|a xs IH]; intros q.
  - cbn [pw paths_from]. rewrite bsum_map, bsum_filter. unfold wget.
    apply bsum_ext; intros f _. unfold path_weight; cbn [fst snd map sprod].
    destruct (Nat.eqb q (fst f)); [symmetry; apply smul_1_l|reflexivity].
  - cbn [pw paths_from]. rewrite bsum_flat_map. apply bsum_ext; intros ar _.
    destruct (Nat.eqb (asrc ar) q && lbl_eqb (albl ar) a).
    + rewrite bsum_map, IH, <- bsum_mul_l. apply bsum_ext; intros p _.
      unfold path_weight; cbn [fst snd map sprod]. apply (smul_assoc S).
    + rewrite bsum_nil; reflexivity.
Qed.

Theorem pathsum_paths : forall (m : wfsa S) (xs : list nat),
  pathsum m xs = bsum (apaths m xs) apath_weight.
Proof.
  intros m xs. unfold pathsum, apaths. rewrite bsum_flat_map.
  apply bsum_ext; intros i _. rewrite bsum_map, pw_paths, <- bsum_mul_l.
  apply bsum_ext; intros p _. unfold apath_weight; cbn [fst snd]. reflexivity.
Qed.

(* sum over the arcs of l that leave q *)
Definition outs (l : list (arc S)) (q : nat) (F : arc S -> S) : S :=
  bsum l (fun ar => if Nat.eqb (asrc ar) q then F ar else 0).

Definition amap (f : nat -> nat) (ar : arc S) : arc S := (f (asrc ar), albl ar, f (adst ar), awt ar).

Lemma outs_cons ar l q F : outs (ar :: l) q F = (if Nat.eqb (asrc ar) q then F ar else 0) + outs l q F.
Proof. reflexivity. Qed.

Lemma outs_app l1 l2 q F : outs (l1 ++ l2) q F = outs l1 q F + outs l2 q F.
Proof. apply bsum_app. Qed.

Lemma outs_ext l q F F' : (forall ar, In ar l -> F ar = F' ar) -> outs l q F = outs l q F'.
Proof. intros H. apply bsum_ext; intros ar Har. rewrite (H ar Har). reflexivity. Qed.

Lemma outs_rename (f : nat -> nat) (Hf : forall p q, f p = f q -> p = q) l q F :
  outs (map (amap f) l) (f q) F = outs l q (fun ar => F (amap f ar)).
Proof.
  unfold outs. rewrite bsum_map. apply bsum_ext; intros ar _.
  unfold amap at 1. rewrite asrc_mk, (eqb_inj f Hf). reflexivity.
Qed.

Lemma outs_rename_off (f : nat -> nat) l x F : (forall p, Nat.eqb (f p) x = false) ->
  outs (map (amap f) l) x F = 0.
Proof.
  intros Hx. unfold outs. rewrite bsum_map. apply bsum_zero; intros ar _.
  unfold amap at 1. rewrite asrc_mk, Hx. reflexivity.
Qed.

Lemma pw_nil (m : wfsa S) q : pw m q [] = wget (wfinal m) q.
Proof. reflexivity. Qed.

Lemma pw_cons (m : wfsa S) q a xs :
  pw m q (a :: xs)
  = outs (warcs m) q (fun ar => if lbl_eqb (albl ar) a then awt ar * pw m (adst ar) xs else 0).
Proof. apply bsum_ext; intros ar _. destruct (Nat.eqb (asrc ar) q); reflexivity. Qed.

(* the arc body of [pwe], and [pwe] one arc further *)
Definition ebody (G : nat -> list nat -> S) (xs : list nat) (ar : arc S) : S :=
  match albl ar with
  | None => awt ar * G (adst ar) xs
  | Some a => match xs with
              | b :: t => if Nat.eqb a b then awt ar * G (adst ar) t else 0
              | [] => 0
              end
  end.

Lemma pwe_S (m : wfsa S) f q xs :
  pwe m (Datatypes.S f) q xs
  = (match xs with [] => wget (wfinal m) q | _ => 0 end) + outs (warcs m) q (ebody (pwe m f) xs).
Proof. reflexivity. Qed.

(* the [+ 0] is what unfolding the model's [pwe] at fuel 0 leaves *)
Lemma pwe_O (m : wfsa S) q xs :
  pwe m O q xs = (match xs with [] => wget (wfinal m) q | _ => 0 end) + 0.
Proof. reflexivity. Qed.

Lemma ebody_ext G G' xs ar : (forall t, G (adst ar) t = G' (adst ar) t) -> ebody G xs ar = ebody G' xs ar.
Proof. intros H. unfold ebody. destruct (albl ar), xs; rewrite ?H; reflexivity. Qed.

Lemma ebody_amap f G xs ar : ebody G xs (amap f ar) = ebody (fun d => G (f d)) xs ar.
Proof. reflexivity. Qed.

(* M, seen from the states f q, is a copy of m *)
Definition embeds (f : nat -> nat) (m M : wfsa S) : Prop :=
  (forall q, wget (wfinal M) (f q) = wget (wfinal m) q) /\
  (forall q F, outs (warcs M) (f q) F = outs (warcs m) q (fun ar => F (amap f ar))).

Lemma pw_embed f m M : embeds f m M -> forall xs q, pw M (f q) xs = pw m q xs.
Proof.
  intros [Hfin Harcs]. induction xs as [|a xs IH]; intros q; [apply Hfin|].
  rewrite !pw_cons, Harcs. apply outs_ext; intros ar _.
  unfold amap. rewrite albl_mk, adst_mk, awt_mk, IH. reflexivity.
Qed.

Lemma pwe_embed f m M : embeds f m M -> forall fuel q xs, pwe M fuel (f q) xs = pwe m fuel q xs.
Proof.
  intros [Hfin Harcs]. induction fuel as [|n IH]; intros q xs.
  - rewrite !pwe_O, Hfin. reflexivity.
  - rewrite !pwe_S, Hfin, Harcs. f_equal. apply outs_ext; intros ar _.
    rewrite ebody_amap. apply ebody_ext. intros t. apply IH.
Qed.

Lemma embeds_rename (f : nat -> nat) (Hf : forall p q, f p = f q -> p = q) (m : wfsa S) :
  embeds f m (rename f m).
Proof. split; intros q; [apply (wget_rename f Hf)|intros F; apply (outs_rename f Hf)]. Qed.

Lemma pathsum_rename (f : nat -> nat) (Hf : forall p q, f p = f q -> p = q) (m : wfsa S) xs :
  pathsum (rename f m) xs = pathsum m xs.
Proof.
  unfold pathsum. unfold rename at 1; cbn [winit]. rewrite bsum_map.
  apply bsum_ext; intros e _. cbn [fst snd].
  rewrite (pw_embed f m _ (embeds_rename f Hf m)). reflexivity.
Qed.

Theorem rename_weight : forall (f : nat -> nat) (m : wfsa S) xs,
  (forall p q, f p = f q -> p = q) -> weight (rename f m) xs = weight m xs.
Proof. intros f m xs Hf. rewrite !forward_pathsum. apply pathsum_rename, Hf. Qed.

Lemma tagL_inj p q : tagL p = tagL q -> p = q.
Proof. unfold tagL; lia. Qed.
Lemma tagR_inj p q : tagR p = tagR q -> p = q.
Proof. unfold tagR; lia. Qed.
Lemma tagL_tagR p q : Nat.eqb (tagL p) (tagR q) = false.
Proof. apply Nat.eqb_neq. unfold tagL, tagR; lia. Qed.
Lemma tagR_tagL p q : Nat.eqb (tagR p) (tagL q) = false.
Proof. apply Nat.eqb_neq. unfold tagL, tagR; lia. Qed.

Lemma wunion_final (a b : wfsa S) :
  wfinal (wunion a b) = map (fun e => (tagL (fst e), snd e)) (wfinal a) ++ map (fun e => (tagR (fst e), snd e)) (wfinal b).
Proof. reflexivity. Qed.
Lemma wunion_arcs (a b : wfsa S) :
  warcs (wunion a b) = map (amap tagL) (warcs a) ++ map (amap tagR) (warcs b).
Proof. reflexivity. Qed.
Lemma wunion_init (a b : wfsa S) :
  winit (wunion a b) = map (fun e => (tagL (fst e), snd e)) (winit a) ++ map (fun e => (tagR (fst e), snd e)) (winit b).
Proof. reflexivity. Qed.

Lemma embeds_union_L (a b : wfsa S) : embeds tagL a (wunion a b).
Proof.
  split; intros q.
  - rewrite wunion_final, wget_app, (wget_rename tagL tagL_inj), wget_rename_off; [apply sadd_0_r|].
    exact (tagL_tagR q).
  - intros F. rewrite wunion_arcs, outs_app, (outs_rename tagL tagL_inj), outs_rename_off; [apply sadd_0_r|].
    intros p. apply tagR_tagL.
Qed.

Lemma embeds_union_R (a b : wfsa S) : embeds tagR b (wunion a b).
Proof.
  split; intros q.
  - rewrite wunion_final, wget_app, (wget_rename tagR tagR_inj), wget_rename_off; [apply sadd_0_l|].
    exact (tagR_tagL q).
  - intros F. rewrite wunion_arcs, outs_app, (outs_rename tagR tagR_inj), outs_rename_off; [apply sadd_0_l|].
    intros p. apply tagL_tagR.
Qed.

Lemma pathsum_union (a b : wfsa S) xs :
  pathsum (wunion a b) xs = pathsum a xs + pathsum b xs.
Proof.
  unfold pathsum. rewrite wunion_init, bsum_app, !bsum_map.
  apply f_equal2; apply bsum_ext; intros e _; cbn [fst snd].
  - rewrite (pw_embed _ _ _ (embeds_union_L a b)). reflexivity.
  - rewrite (pw_embed _ _ _ (embeds_union_R a b)). reflexivity.
Qed.

Theorem union_weight : forall (a b : wfsa S) xs,
  weight (wunion a b) xs = weight a xs + weight b xs.
Proof. intros a b xs. rewrite !forward_pathsum. apply pathsum_union. Qed.

(* one reading step of an epsilon-free machine from q, continuing with G *)
Definition astep (q y : nat) (G : nat -> S) (ar : arc S) : S :=
  if Nat.eqb (asrc ar) q && lbl_eqb (albl ar) y then awt ar * G (adst ar) else 0.

Definition rstep (l : list (arc S)) (G : nat -> list nat -> S) (q : nat) (xs : list nat) : S :=
  match xs with [] => 0 | y :: t => bsum l (astep q y (fun d => G d t)) end.

Lemma rstep_ext l G G' q xs :
  (forall y t d, xs = y :: t -> G d t = G' d t) -> rstep l G q xs = rstep l G' q xs.
Proof.
  intros H. destruct xs as [|y t]; [reflexivity|]. apply bsum_ext; intros ar _.
  unfold astep. rewrite (H y t (adst ar) eq_refl). reflexivity.
Qed.

(* reading steps are linear in the continuation *)
Lemma rstep_add l G G' q xs :
  rstep l (fun d t => G d t + G' d t) q xs = rstep l G q xs + rstep l G' q xs.
Proof.
  destruct xs as [|y t]; cbn [rstep]; [symmetry; apply sadd_0_l|]. rewrite <- bsum_add. apply bsum_ext; intros ar _.
  unfold astep. destruct (Nat.eqb (asrc ar) q && lbl_eqb (albl ar) y); ring.
Qed.

Lemma astep_off q y G ar : asrc ar <> q -> astep q y G ar = 0.
Proof. intros H. unfold astep. apply Nat.eqb_neq in H. rewrite H. reflexivity. Qed.

Lemma astep_mul_r l q y G c : bsum l (astep q y G) * c = bsum l (astep q y (fun d => G d * c)).
Proof.
  rewrite <- bsum_mul_r. apply bsum_ext; intros ar _. unfold astep.
  destruct (Nat.eqb (asrc ar) q && lbl_eqb (albl ar) y); ring.
Qed.

Lemma astep_bsum {A} (L : list A) l q y (G : A -> nat -> S) :
  bsum L (fun x => bsum l (astep q y (G x))) = bsum l (astep q y (fun d => bsum L (fun x => G x d))).
Proof.
  rewrite bsum_swap. apply bsum_ext; intros ar _. unfold astep.
  destruct (Nat.eqb (asrc ar) q && lbl_eqb (albl ar) y); [apply bsum_mul_l|apply bsum_const_zero].
Qed.

(* the reading steps from q, over all symbols, visit every arc leaving q once *)
Lemma astep_by_label (V : list nat) l q (G : nat -> nat -> S) :
  NoDup V -> (forall ar, In ar l -> exists a, albl ar = Some a /\ In a V) ->
  bsum V (fun c => bsum l (astep q c (G c)))
  = outs l q (fun ar => match albl ar with Some a => awt ar * G a (adst ar) | None => 0 end).
Proof.
  intros HV Hl. rewrite bsum_swap. apply bsum_ext; intros ar Har.
  destruct (Hl ar Har) as [a [Ea Ha]]. unfold astep. rewrite Ea. cbn [lbl_eqb].
  destruct (Nat.eqb (asrc ar) q); cbn [andb]; [|apply bsum_const_zero].
  apply (bsum_pick S V a (fun c => awt ar * G c (adst ar)) HV Ha).
Qed.

(* on arcs with a label, the arc body of [pwe] is a reading step *)
Lemma outs_ebody_epsfree (l : list (arc S)) (Hl : forall ar, In ar l -> albl ar <> None) G q xs :
  outs l q (ebody G xs) = rstep l G q xs.
Proof.
  destruct xs as [|y t]; cbn [rstep].
  - apply bsum_zero; intros ar Har. unfold ebody. destruct (Nat.eqb (asrc ar) q); [|reflexivity].
    destruct (albl ar) eqn:E; [reflexivity|destruct (Hl ar Har E)].
  - apply bsum_ext; intros ar Har. unfold astep, ebody. destruct (Nat.eqb (asrc ar) q); [|reflexivity].
    destruct (albl ar) as [c|] eqn:E; [|destruct (Hl ar Har E)].
    cbn [andb lbl_eqb]. rewrite (Nat.eqb_sym y c). reflexivity.
Qed.

(* [outs_rename] at [ebody], stated apart because rewriting does not see that
   [fun ar => ebody G xs (amap f ar)] is an [ebody] *)
Lemma outs_rename_ebody (f : nat -> nat) (Hf : forall p q, f p = f q -> p = q) l q G xs :
  outs (map (amap f) l) (f q) (ebody G xs) = outs l q (ebody (fun d => G (f d)) xs).
Proof. apply (outs_rename f Hf). Qed.

Lemma pw_step (m : wfsa S) q xs :
  pw m q xs = (match xs with [] => wget (wfinal m) q | _ => 0 end) + rstep (warcs m) (pw m) q xs.
Proof. destruct xs; cbn [pw rstep]; symmetry; [apply sadd_0_r|apply sadd_0_l]. Qed.

Lemma pwe_pw (m : wfsa S) (Hm : eps_free m) :
  forall fuel q xs, length xs <= fuel -> pwe m fuel q xs = pw m q xs.
Proof.
  induction fuel as [|n IH]; intros q xs Hlen; rewrite pw_step.
  - destruct xs; [reflexivity|cbn [length] in Hlen; lia].
  - rewrite pwe_S, (outs_ebody_epsfree _ Hm). f_equal.
    apply rstep_ext. intros y t d E. apply IH. subst xs. cbn [length] in Hlen. lia.
Qed.

Theorem epsfree_pathsum_e : forall (m : wfsa S) xs fuel,
  (forall ar, In ar (warcs m) -> albl ar <> None) -> length xs <= fuel ->
  pathsum_e m fuel xs = pathsum m xs.
Proof.
  intros m xs fuel Hm Hlen. unfold pathsum_e, pathsum.
  apply bsum_ext; intros e _. rewrite (pwe_pw m Hm fuel (fst e) xs Hlen). reflexivity.
Qed.

Lemma wget_fstep (m : wfsa S) (v : wvec S) a q :
  wget (fstep m v a) q
  = bsum (warcs m) (fun ar =>
      if Nat.eqb (adst ar) q && lbl_eqb (albl ar) a then wget v (asrc ar) * awt ar else 0).
Proof.
  unfold wget at 1, fstep. rewrite bsum_flat_map. apply bsum_ext; intros ar _.
  destruct (lbl_eqb (albl ar) a).
  - rewrite bsum_cons, bsum_nil. cbn [fst snd]. rewrite (Nat.eqb_sym q), andb_true_r.
    destruct (Nat.eqb (adst ar) q); apply sadd_0_r.
  - rewrite andb_false_r. reflexivity.
Qed.

(* reading a last symbol is a step of the final vector through the reversed arcs *)
Lemma pw_snoc i (v : wvec S) A a ys : forall q,
  pw (mkW i v A) q (ys ++ [a]) = pw (mkW i (fstep (wreverse (mkW i v A)) v a) A) q ys.
Proof.
  induction ys as [|b ys IH]; intros q; cbn [app pw warcs wfinal].
  - rewrite wget_fstep. cbn [wreverse warcs]. rewrite bsum_map. apply bsum_ext; intros ar _.
    rewrite adst_mk, albl_mk, asrc_mk, awt_mk.
    destruct (Nat.eqb (asrc ar) q && lbl_eqb (albl ar) a); [apply (smul_comm S)|reflexivity].
  - apply bsum_ext; intros ar _. rewrite IH. reflexivity.
Qed.

(* the forward pass of the reversed machine computes the backward values of m *)
Lemma fwd_reverse i A xs : forall (v : wvec S) q,
  wget (fold_left (fstep (wreverse (mkW i v A))) xs v) q = pw (mkW i v A) q (rev xs).
Proof.
  induction xs as [|a xs IH]; intros v q; [reflexivity|].
  cbn [fold_left rev]. rewrite pw_snoc. apply (IH (fstep (wreverse (mkW i v A)) v a)).
Qed.

Theorem reverse_weight : forall (m : wfsa S) xs, weight (wreverse m) xs = weight m (rev xs).
Proof.
  intros [i v A] xs. rewrite (forward_pathsum _ (rev xs)).
  apply bsum_ext; intros e _. unfold fwd. cbn [wreverse winit fst].
  rewrite (fwd_reverse i A xs v). ring.
Qed.

End WfsaProofs.

Arguments outs {S} l q F. Arguments amap {S} f ar. Arguments ebody {S} G xs ar.
Arguments embeds {S} f m M. Arguments astep {S} q y G ar. Arguments rstep {S} l G q xs.

Print Assumptions forward_pathsum.
Print Assumptions pathsum_paths.
Print Assumptions rename_weight.
Print Assumptions union_weight.
Print Assumptions reverse_weight.
Print Assumptions epsfree_pathsum_e.
