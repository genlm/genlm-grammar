(* interegular_to_wfsa post-processing (model/Regex.v).  Every entry of the DFA's map gives its K
   moves and, if final, its stopping the weight 1/K each, so the result is locally normalised and every
   arc is a single-character DFA move into a live state.  With the initial weight 1 on the DFA's
   initial state this is an automaton with positive weights, hence the path sum of a string is
   non-negative, and non-zero exactly when the DFA, restricted to those moves, accepts the string.
   All of it rests on a few facts about sums and order over Qc (used by SubProbProofs as well). *)
From Coq Require Import List QArith Qcanon Lia.
From GV.lib Require Import Semiring BigSum.
From GV.model Require Import Regex Wfsa.
Import ListNotations.

Definition qofnat (n : nat) : Qc := Q2Qc (Z.of_nat n # 1).

Lemma Zpos_of_nat (k : nat) : k <> O -> Zpos (Pos.of_nat k) = Z.of_nat k.
Proof. intros Hk. rewrite <- positive_nat_Z. rewrite Nat2Pos.id by exact Hk. reflexivity. Qed.

Lemma invK_mul : forall k, k <> O -> (Q2Qc (Z.of_nat k # 1) * invK k = 1)%Qc.
Proof.
  intros k Hk. unfold invK. apply Qc_is_canon.
  unfold Qcmult, Q2Qc; cbn [this].
  rewrite !Qred_correct.
  unfold Qeq, Qmult; cbn [Qnum Qden].
  rewrite Pos.mul_1_l, (Zpos_of_nat k Hk). lia.
Qed.

Lemma qofnat_S (n : nat) : qofnat (S n) = (1 + qofnat n)%Qc.
Proof.
  unfold qofnat. apply Qc_is_canon.
  unfold Qcplus, Q2Qc; cbn [this].
  rewrite !Qred_correct.
  unfold Qeq, Qplus; cbn [Qnum Qden].
  rewrite Nat2Z.inj_succ. change (1 * 1)%positive with 1%positive. lia.
Qed.

Lemma qofnat_0 : qofnat 0 = 0%Qc.
Proof. unfold qofnat. apply Qc_is_canon. reflexivity. Qed.

Lemma bsum_const_Qc : forall {A} (l : list A) (c : Qc),
  bsum (S:=QcSR) l (fun _ => c) = (Q2Qc (Z.of_nat (length l) # 1) * c)%Qc.
Proof.
  intros A l c. induction l as [|a t IH].
  - rewrite bsum_nil. cbn [length]. change (Q2Qc (Z.of_nat 0 # 1)) with (qofnat 0).
    rewrite qofnat_0. symmetry. apply Qcmult_0_l.
  - rewrite bsum_cons, IH. cbn [length].
    change (Q2Qc (Z.of_nat (S (length t)) # 1)) with (qofnat (S (length t))).
    change (Q2Qc (Z.of_nat (length t) # 1)) with (qofnat (length t)).
    rewrite qofnat_S. simpl. ring.
Qed.

(* also for k = 0: Pos.of_nat 0 = 1, so invK 0 = 1 *)
Theorem regex_weights_positive : forall k, k <> O -> (0 < invK k)%Qc.
Proof.
  intros k _. unfold invK, Qclt, Q2Qc; cbn [this].
  rewrite Qred_correct. unfold Qlt; simpl. lia.
Qed.

Lemma Qc_0_le_1 : (0 <= 1)%Qc.
Proof. apply Qclt_le_weak. reflexivity. Qed.

Lemma Qc_lt_irrefl0 : ~ (0 < 0)%Qc.
Proof. intros H. exact (Qclt_not_eq _ _ H eq_refl). Qed.

Lemma Qc_eq_le : forall a b : Qc, a = b -> (a <= b)%Qc.
Proof. intros a b ->. apply Qcle_refl. Qed.

Lemma Qc_le_add_nonneg : forall a b : Qc, (0 <= b)%Qc -> (a <= a + b)%Qc.
Proof.
  intros a b Hb. pose proof (Qcplus_le_compat a a 0 b (Qcle_refl a) Hb) as H.
  rewrite Qcplus_0_r in H. exact H.
Qed.

Lemma Qc_add_pos_iff : forall a b : Qc, (0 <= a)%Qc -> (0 <= b)%Qc ->
  ((0 < a + b)%Qc <-> ((0 < a)%Qc \/ (0 < b)%Qc)).
Proof.
  intros a b Ha Hb. split.
  - intros H. destruct (Qcle_lt_or_eq _ _ Ha) as [Hlt|Heq]; [left; exact Hlt|].
    right. rewrite <- Heq, Qcplus_0_l in H. exact H.
  - intros [H|H].
    + apply Qclt_le_trans with a; [exact H|apply Qc_le_add_nonneg, Hb].
    + apply Qclt_le_trans with b; [exact H|]. rewrite Qcplus_comm. apply Qc_le_add_nonneg, Ha.
Qed.

Lemma Qc_mul_nonneg : forall w p : Qc, (0 <= w)%Qc -> (0 <= p)%Qc -> (0 <= w * p)%Qc.
Proof.
  intros w p Hw Hp. pose proof (Qcmult_le_compat_r 0 w p Hw Hp) as H.
  rewrite Qcmult_0_l in H. exact H.
Qed.

Lemma Qc_mul_pos_iff : forall w p : Qc, (0 < w)%Qc -> (0 <= p)%Qc -> ((0 < w * p)%Qc <-> (0 < p)%Qc).
Proof.
  intros w p Hw Hp. split.
  - intros H. destruct (Qcle_lt_or_eq _ _ Hp) as [Hlt|Heq]; [exact Hlt|].
    rewrite <- Heq, Qcmult_0_r in H. destruct (Qc_lt_irrefl0 H).
  - intros H. pose proof (Qcmult_lt_compat_r 0 w p H Hw) as H2.
    rewrite Qcmult_0_l in H2. exact H2.
Qed.

Lemma Qc_mul_le_self : forall x t : Qc, (0 <= x)%Qc -> (t <= 1)%Qc -> (x * t <= x)%Qc.
Proof.
  intros x t Hx Ht. pose proof (Qcmult_le_compat_r t 1 x Ht Hx) as H.
  rewrite Qcmult_1_l in H. rewrite Qcmult_comm. exact H.
Qed.

Lemma qsum_cons {A} (a : A) (l : list A) (f : A -> Qc) :
  bsum (S:=QcSR) (a :: l) f = (f a + bsum (S:=QcSR) l f)%Qc.
Proof. reflexivity. Qed.

Lemma qsum_zero {A} (l : list A) : bsum (S:=QcSR) l (fun _ => 0%Qc) = 0%Qc.
Proof. exact (bsum_const_zero QcSR l). Qed.

Lemma bsum_Qc_le : forall {A} (l : list A) (f g : A -> Qc),
  (forall a, In a l -> (f a <= g a)%Qc) -> (bsum (S:=QcSR) l f <= bsum (S:=QcSR) l g)%Qc.
Proof.
  intros A l f g. induction l as [|a t IH]; intros H.
  - apply Qcle_refl.
  - rewrite !qsum_cons. apply Qcplus_le_compat.
    + apply H. left. reflexivity.
    + apply IH. intros b Hb. apply H. right. exact Hb.
Qed.

Lemma bsum_Qc_nonneg : forall {A} (l : list A) (f : A -> Qc),
  (forall a, In a l -> (0 <= f a)%Qc) -> (0 <= bsum (S:=QcSR) l f)%Qc.
Proof.
  intros A l f H. rewrite <- (qsum_zero l). apply bsum_Qc_le, H.
Qed.

Lemma bsum_Qc_pos_iff : forall {A} (l : list A) (f : A -> Qc),
  (forall a, In a l -> (0 <= f a)%Qc) ->
  ((0 < bsum (S:=QcSR) l f)%Qc <-> exists a, In a l /\ (0 < f a)%Qc).
Proof.
  intros A l f. induction l as [|a t IH]; intros H.
  - split; [intros H0; destruct (Qc_lt_irrefl0 H0)|intros [a [[] _]]].
  - assert (Ht : forall b, In b t -> (0 <= f b)%Qc) by (intros b Hb; apply H; right; exact Hb).
    rewrite qsum_cons, (Qc_add_pos_iff _ _ (H a (or_introl eq_refl)) (bsum_Qc_nonneg t f Ht)), (IH Ht).
    split.
    + intros [H1|[b [Hb Hp]]]; [exists a|exists b]; auto using in_eq, in_cons.
    + intros [b [[<-|Hb] Hp]]; [left; exact Hp|right; exists b; auto].
Qed.

(* e need not occur in d_map D: re_mass looks only at the state fst e and the outgoing list snd e *)
Theorem regex_locally_normalised : forall (charset : list nat) (D : dfa) (e : nat * list (nat * nat)),
  fanout charset D (fst e) (snd e) <> O -> re_mass charset D e = 1%Qc.
Proof.
  intros charset D e HK. unfold re_mass. cbv zeta.
  destruct (Nat.eqb_spec (fanout charset D (fst e) (snd e)) 0) as [E|_]; [contradiction|].
  rewrite bsum_const_Qc.
  pose proof (invK_mul _ HK) as Hmul.
  unfold fanout in *.
  destruct (memn (fst e) (d_finals D)).
  - rewrite Nat.add_1_r in *.
    set (n := length (moves charset D (snd e))) in *.
    change (Q2Qc (Z.of_nat (S n) # 1)) with (qofnat (S n)) in Hmul.
    change (Q2Qc (Z.of_nat n # 1)) with (qofnat n).
    rewrite qofnat_S in Hmul. rewrite <- Hmul. ring.
  - rewrite Nat.add_0_r in *. rewrite Hmul. ring.
Qed.

Theorem regex_arcs_single_char : forall charset D i x j w,
  In (i, x, j, w) (re_arcs charset D) ->
  exists outs, In (i, outs) (d_map D) /\ In (x, j) (moves charset D outs) /\
               w = invK (fanout charset D i outs) /\ fanout charset D i outs <> O.
Proof.
  intros charset D i x j w Hin. unfold re_arcs in Hin.
  apply in_flat_map in Hin. destruct Hin as [[i' outs] [He Hin]].
  cbv zeta in Hin. cbn [fst snd] in Hin.
  destruct (Nat.eqb_spec (fanout charset D i' outs) 0) as [E|E]; [destruct Hin|].
  apply in_map_iff in Hin. destruct Hin as [[x' j'] [Heq Hm]].
  cbn [fst snd] in Heq. injection Heq as -> -> -> <-.
  exists outs. repeat split; assumption.
Qed.

Theorem regex_moves_live : forall charset D outs x j,
  In (x, j) (moves charset D outs) ->
  memn j (d_live D) = true /\ exists c, In (c, j) outs /\ In [x] (expand charset D c).
Proof.
  intros charset D outs x j Hin. unfold moves in Hin.
  apply in_flat_map in Hin. destruct Hin as [[c j'] [Hcj Hin]].
  cbn [fst snd] in Hin.
  destruct (memn j' (d_live D)) eqn:Elive; [|destruct Hin].
  apply in_flat_map in Hin. destruct Hin as [s [Hs Hin]].
  destruct s as [|y [|z s']]; try (destruct Hin; fail).
  destruct Hin as [Heq|[]]. injection Heq as -> ->.
  split; [exact Elive|]. exists c. split; assumption.
Qed.

(* final weights have the same shape *)
Theorem regex_finals_weight : forall charset D i w,
  In (i, w) (re_finals charset D) ->
  exists outs, In (i, outs) (d_map D) /\ memn i (d_finals D) = true /\
               w = invK (fanout charset D i outs) /\ fanout charset D i outs <> O.
Proof.
  intros charset D i w Hin. unfold re_finals in Hin.
  apply in_flat_map in Hin. destruct Hin as [[i' outs] [He Hin]].
  cbv zeta in Hin. cbn [fst snd] in Hin.
  destruct (Nat.eqb_spec (fanout charset D i' outs) 0) as [E|E]; [destruct Hin|].
  destruct (memn i' (d_finals D)) eqn:Ef; [|destruct Hin].
  destruct Hin as [Heq|[]]. injection Heq as -> <-.
  exists outs. repeat split; assumption.
Qed.

(* the automaton the code builds: initial weight 1 on the DFA's initial state *)
Definition re_wfsa (charset : list nat) (D : dfa) : wfsa QcSR :=
  mkW (S:=QcSR) [(d_init D, 1%Qc)] (re_finals charset D)
      (map (fun a => match a with (i, x, j, w) => (i, Some x, j, w) end) (re_arcs charset D)).

(* acceptance by the DFA restricted to single-character moves of the character set into live states *)
Inductive dfa_run (charset : list nat) (D : dfa) : nat -> list nat -> Prop :=
| run_nil : forall i outs, In (i, outs) (d_map D) -> memn i (d_finals D) = true -> dfa_run charset D i []
| run_cons : forall i outs x j xs, In (i, outs) (d_map D) -> In (x, j) (moves charset D outs) ->
    dfa_run charset D j xs -> dfa_run charset D i (x :: xs).

Section Weights.
Variable m : wfsa QcSR.
Local Open Scope Qc_scope.

Lemma wget_nonneg : forall (v : list (nat * Qc)) (q : nat),
  (forall e, In e v -> 0 <= snd e) -> 0 <= wget (S:=QcSR) v q.
Proof.
  intros v q H. unfold wget. apply (bsum_Qc_nonneg v). intros e He. cbv beta.
  destruct (Nat.eqb q _); [apply H, He|apply Qcle_refl].
Qed.

Lemma pw_nonneg : (forall e, In e (wfinal m) -> 0 <= snd e) -> (forall ar, In ar (warcs m) -> 0 <= awt ar) ->
  forall xs q, 0 <= pw m q xs.
Proof.
  intros Hf Ha xs. induction xs as [|a xs IH]; intros q.
  - cbn [pw]. apply wget_nonneg. exact Hf.
  - cbn [pw]. apply (bsum_Qc_nonneg (warcs m)). intros ar Har. cbv beta.
    destruct (Nat.eqb (asrc ar) q && lbl_eqb (albl ar) a); [|apply Qcle_refl].
    apply Qc_mul_nonneg; [apply Ha, Har|apply IH].
Qed.

(* with positive weights, a state's weight for a string is positive exactly when some final entry,
   resp. some arc into a state of positive weight, carries it *)
Lemma pw_pos_nil q : (forall e, In e (wfinal m) -> 0 < snd e) ->
  (0 < pw m q [] <-> exists e, In e (wfinal m) /\ fst e = q).
Proof.
  intros Hf. cbn [pw]. unfold wget. rewrite bsum_Qc_pos_iff.
  - split.
    + intros [e [He Hp]]. destruct (Nat.eqb_spec q (fst e)) as [->|_]; [|destruct (Qc_lt_irrefl0 Hp)].
      exists e. split; [exact He|reflexivity].
    + intros [e [He <-]]. exists e. rewrite Nat.eqb_refl. split; [exact He|apply Hf, He].
  - intros e He. destruct (Nat.eqb q (fst e)); [apply Qclt_le_weak, Hf, He|apply Qcle_refl].
Qed.

Lemma pw_pos_cons q a xs :
  (forall e, In e (wfinal m) -> 0 <= snd e) -> (forall ar, In ar (warcs m) -> 0 < awt ar) ->
  (0 < pw m q (a :: xs) <->
   exists ar, In ar (warcs m) /\ asrc ar = q /\ albl ar = Some a /\ 0 < pw m (adst ar) xs).
Proof.
  intros Hf Ha.
  assert (Hp : forall q', 0 <= pw m q' xs)
    by (intros q'; apply pw_nonneg; [exact Hf|intros ar Har; apply Qclt_le_weak, Ha, Har]).
  cbn [pw]. rewrite bsum_Qc_pos_iff.
  - split.
    + intros [ar [Har H]]. exists ar. split; [exact Har|].
      destruct (Nat.eqb_spec (asrc ar) q) as [Eq|_]; [|destruct (Qc_lt_irrefl0 H)].
      destruct (albl ar) as [b|]; [|destruct (Qc_lt_irrefl0 H)]. cbn [andb lbl_eqb] in H.
      destruct (Nat.eqb_spec a b) as [E|_]; [subst b|destruct (Qc_lt_irrefl0 H)].
      split; [exact Eq|split; [reflexivity|]]. exact (proj1 (Qc_mul_pos_iff _ _ (Ha ar Har) (Hp _)) H).
    + intros [ar [Har [<- [El H]]]]. exists ar. split; [exact Har|].
      rewrite El, Nat.eqb_refl. cbn [andb lbl_eqb]. rewrite Nat.eqb_refl.
      exact (proj2 (Qc_mul_pos_iff _ _ (Ha ar Har) (Hp _)) H).
  - intros ar Har. destruct (Nat.eqb (asrc ar) q && lbl_eqb (albl ar) a); [|apply Qcle_refl].
    apply Qc_mul_nonneg; [apply Qclt_le_weak, Ha, Har|apply Hp].
Qed.

End Weights.

Lemma re_arcs_intro : forall charset D i outs x j,
  In (i, outs) (d_map D) -> In (x, j) (moves charset D outs) ->
  In (i, x, j, invK (fanout charset D i outs)) (re_arcs charset D).
Proof.
  intros charset D i outs x j He Hm.
  unfold re_arcs. apply in_flat_map. exists (i, outs). split; [exact He|].
  cbv zeta. cbn [fst snd].
  destruct (Nat.eqb_spec (fanout charset D i outs) 0) as [E|_].
  - unfold fanout in E. destruct (moves charset D outs); [destruct Hm|discriminate E].
  - apply in_map_iff. exists (x, j). split; [reflexivity|exact Hm].
Qed.

Lemma re_finals_intro : forall charset D i outs,
  In (i, outs) (d_map D) -> memn i (d_finals D) = true ->
  In (i, invK (fanout charset D i outs)) (re_finals charset D).
Proof.
  intros charset D i outs He Hf.
  unfold re_finals. apply in_flat_map. exists (i, outs). split; [exact He|].
  cbv zeta. cbn [fst snd].
  destruct (Nat.eqb_spec (fanout charset D i outs) 0) as [E|_].
  - unfold fanout in E. rewrite Hf in E. lia.
  - rewrite Hf. left. reflexivity.
Qed.

Lemma re_warcs_inv : forall charset D (ar : arc QcSR),
  In ar (warcs (re_wfsa charset D)) ->
  exists i x j w, ar = (i, Some x, j, w) /\ In (i, x, j, w) (re_arcs charset D).
Proof.
  intros charset D ar Hin. cbn [re_wfsa warcs] in Hin.
  apply in_map_iff in Hin. destruct Hin as [[[[i x] j] w] [Heq Hin]].
  exists i, x, j, w. split; [symmetry; exact Heq|exact Hin].
Qed.

Lemma re_positive : forall charset D,
  (forall e, In e (wfinal (re_wfsa charset D)) -> (0 < snd e)%Qc) /\
  (forall ar, In ar (warcs (re_wfsa charset D)) -> (0 < awt ar)%Qc).
Proof.
  intros charset D. split.
  - intros [i w] Hin. destruct (regex_finals_weight _ _ _ _ Hin) as [outs [_ [_ [-> HK]]]].
    apply regex_weights_positive, HK.
  - intros ar Har. destruct (re_warcs_inv _ _ _ Har) as [i [x [j [w [-> Hin]]]]].
    destruct (regex_arcs_single_char _ _ _ _ _ _ Hin) as [outs [_ [_ [-> HK]]]].
    apply regex_weights_positive, HK.
Qed.

Lemma re_pw_pos_iff : forall charset D xs q,
  (0 < pw (re_wfsa charset D) q xs)%Qc <-> dfa_run charset D q xs.
Proof.
  intros charset D. destruct (re_positive charset D) as [Hf Ha].
  assert (Hf0 : forall e, In e (wfinal (re_wfsa charset D)) -> (0 <= snd e)%Qc)
    by (intros e He; apply Qclt_le_weak, Hf, He).
  induction xs as [|a xs IH]; intros q.
  - rewrite (pw_pos_nil _ q Hf). split.
    + intros [[i w] [Hin <-]]. destruct (regex_finals_weight _ _ _ _ Hin) as [outs [He [Hfin _]]].
      exact (run_nil charset D i outs He Hfin).
    + intros Hr. inversion Hr as [i outs He Hfin|]; subst.
      exists (q, invK (fanout charset D q outs)). split; [apply re_finals_intro; assumption|reflexivity].
  - rewrite (pw_pos_cons _ q a xs Hf0 Ha). split.
    + intros [ar [Har [<- [El Hp]]]]. destruct (re_warcs_inv _ _ _ Har) as [i [x [j [w [-> Hin]]]]].
      injection El as ->.
      destruct (regex_arcs_single_char _ _ _ _ _ _ Hin) as [outs [He [Hm _]]].
      exact (run_cons charset D i outs a j xs He Hm (proj1 (IH j) Hp)).
    + intros Hr. inversion Hr as [|i outs x j xs' He Hm Hrj]; subst.
      exists (q, Some a, j, invK (fanout charset D q outs)).
      split; [|split; [reflexivity|split; [reflexivity|apply IH, Hrj]]].
      apply in_map_iff. exists (q, a, j, invK (fanout charset D q outs)).
      split; [reflexivity|apply re_arcs_intro; assumption].
Qed.

Lemma re_pathsum_pw : forall charset D xs,
  pathsum (re_wfsa charset D) xs = pw (re_wfsa charset D) (d_init D) xs.
Proof.
  intros charset D xs. unfold pathsum. cbn [re_wfsa winit].
  rewrite bsum_cons, bsum_nil. cbn [fst snd].
  change (1 * pw (re_wfsa charset D) (d_init D) xs + 0 = pw (re_wfsa charset D) (d_init D) xs)%Qc.
  ring.
Qed.

Theorem re_pathsum_nonneg : forall charset D xs, (0 <= pathsum (re_wfsa charset D) xs)%Qc.
Proof.
  intros charset D xs. rewrite re_pathsum_pw. destruct (re_positive charset D) as [Hf Ha].
  apply pw_nonneg; [intros e He; apply Qclt_le_weak, Hf, He|intros ar Har; apply Qclt_le_weak, Ha, Har].
Qed.

Theorem re_language_pos : forall charset D xs,
  (0 < pathsum (re_wfsa charset D) xs)%Qc <-> dfa_run charset D (d_init D) xs.
Proof. intros charset D xs. rewrite re_pathsum_pw. apply re_pw_pos_iff. Qed.

Theorem re_language : forall charset D xs,
  pathsum (re_wfsa charset D) xs <> 0%Qc <-> dfa_run charset D (d_init D) xs.
Proof.
  intros charset D xs. rewrite <- re_language_pos. split.
  - intros Hne. destruct (Qcle_lt_or_eq _ _ (re_pathsum_nonneg charset D xs)) as [H|H]; [exact H|].
    exfalso. apply Hne. symmetry. exact H.
  - intros Hp Heq. rewrite Heq in Hp. exact (Qc_lt_irrefl0 Hp).
Qed.

Theorem re_wfsa_eps_free : forall charset D, eps_free (re_wfsa charset D).
Proof.
  intros charset D ar Har.
  destruct (re_warcs_inv _ _ _ Har) as [i [x [j [w [-> _]]]]].
  unfold albl. cbn [fst snd]. discriminate.
Qed.

Local Open Scope nat_scope.
Definition exD : dfa :=
  mkD 0 [1] [0; 1] [(0, [(0, 1)]); (1, [(0, 1)])] [(0, Explicit [[7]])] [[7]].

Example exD_accepts_77 : pathsum (re_wfsa [7; 8] exD) [7; 7] = Q2Qc (1 # 4).
Proof. vm_compute. reflexivity. Qed.

Example exD_rejects_8 : pathsum (re_wfsa [7; 8] exD) [8] = 0%Qc.
Proof. vm_compute. reflexivity. Qed.

Example exD_run_77 : dfa_run [7; 8] exD 0 [7; 7].
Proof.
  apply run_cons with (outs := [(0, 1)]) (j := 1); [left; reflexivity|left; reflexivity|].
  apply run_cons with (outs := [(0, 1)]) (j := 1); [right; left; reflexivity|left; reflexivity|].
  apply run_nil with (outs := [(0, 1)]); [right; left; reflexivity|reflexivity].
Qed.

Example exD_pos_77 : (0 < pathsum (re_wfsa [7; 8] exD) [7; 7])%Qc.
Proof. apply re_language_pos. exact exD_run_77. Qed.

Print Assumptions invK_mul.
Print Assumptions bsum_const_Qc.
Print Assumptions regex_locally_normalised.
Print Assumptions regex_arcs_single_char.
Print Assumptions regex_moves_live.
Print Assumptions regex_weights_positive.
Print Assumptions regex_finals_weight.
Print Assumptions re_pathsum_nonneg.
Print Assumptions re_language_pos.
Print Assumptions re_language.
Print Assumptions re_wfsa_eps_free.
Print Assumptions exD_accepts_77.
Print Assumptions exD_rejects_8.
Print Assumptions exD_run_77.
