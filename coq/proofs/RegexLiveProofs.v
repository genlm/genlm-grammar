(* The live set that lark_interface.interegular_to_wfsa computes relative to the character set (the `while grew`
   loop; model/RegexLive.v): in the automaton built from [with_live charset D] every arc leads to a state with a
   positive fan-out, hence to a state whose outgoing + final mass is one (no dead ends).
   For this only one step of soundness is needed, and only that is proved: a live state is final or has a
   single-character move into the live set ([live_of_justified]), whatever the fuel.  That the fuel S |d_map| lets
   the search find every state from which a final state can be reached (each productive round adds a state that
   has a d_map entry) is not proved; a shortfall would only drop more states. *)
From Coq Require Import List Bool Qcanon Lia.
From GV.model Require Import Regex RegexLive.
From GV.proofs Require Import Closure RegexLangProofs.
Import ListNotations.

Lemma moves_into_mono : forall charset D L L' outs,
  incl L L' -> moves_into charset D L outs = true -> moves_into charset D L' outs = true.
Proof.
  intros charset D L L' outs Hincl H. unfold moves_into in *.
  apply existsb_exists in H. destruct H as [cj [Hcj Hb]].
  apply andb_true_iff in Hb. destruct Hb as [Hm Hs].
  apply existsb_exists. exists cj. split; [exact Hcj|].
  apply andb_true_iff. split; [|exact Hs].
  apply mem_spec, Hincl, mem_spec, Hm.
Qed.

Lemma live_step_incl : forall charset D L, incl L (live_step charset D L).
Proof. intros charset D L x Hx. unfold live_step. apply in_or_app. left. exact Hx. Qed.

Lemma live_iter_inv (P : list nat -> Prop) charset D :
  (forall L, P L -> P (live_step charset D L)) -> forall fuel L, P L -> P (live_iter charset D fuel L).
Proof. intros H fuel. induction fuel as [|f IH]; intros L HL; [exact HL|]. apply IH, H, HL. Qed.

Lemma live_iter_mono : forall charset D fuel L x, In x L -> In x (live_iter charset D fuel L).
Proof.
  intros charset D fuel L x. apply (live_iter_inv (fun L => In x L)). intros L' H. apply live_step_incl, H.
Qed.

Definition justified (charset : list nat) (D : dfa) (L : list nat) : Prop :=
  forall i, In i L ->
    In i (d_finals D) \/ exists outs, In (i, outs) (d_map D) /\ moves_into charset D L outs = true.

Lemma justified_step : forall charset D L,
  justified charset D L -> justified charset D (live_step charset D L).
Proof.
  intros charset D L HJ i Hi.
  pose proof (live_step_incl charset D L) as Hincl.
  unfold live_step in Hi. apply in_app_or in Hi. destruct Hi as [Hi|Hi].
  - destruct (HJ i Hi) as [Hf|[outs [He Hm]]]; [left; exact Hf|].
    right. exists outs. split; [exact He|].
    apply (moves_into_mono charset D L _ outs Hincl Hm).
  - apply in_flat_map in Hi. destruct Hi as [[i' outs] [He Hin]].
    cbn [fst snd] in Hin.
    destruct (negb (memn i' L) && moves_into charset D L outs) eqn:Eb; [|destruct Hin].
    destruct Hin as [Heq|[]]. subst i'.
    apply andb_true_iff in Eb. destruct Eb as [_ Hm].
    right. exists outs. split; [exact He|].
    apply (moves_into_mono charset D L _ outs Hincl Hm).
Qed.

Lemma live_of_justified : forall charset D i, In i (live_of charset D) ->
  In i (d_finals D) \/ exists outs, In (i, outs) (d_map D) /\ moves_into charset D (live_of charset D) outs = true.
Proof.
  intros charset D. apply (live_iter_inv (justified charset D)); [apply justified_step|].
  intros i Hi. left. exact Hi.
Qed.

Lemma moves_into_moves : forall charset D outs,
  moves_into charset D (live_of charset D) outs = true ->
  exists x j, In (x, j) (moves charset (with_live charset D) outs).
Proof.
  intros charset D outs H. unfold moves_into in H.
  apply existsb_exists in H. destruct H as [[c j] [Hcj Hb]].
  cbn [fst snd] in Hb.
  apply andb_true_iff in Hb. destruct Hb as [Hm Hs].
  unfold single_char_class in Hs. apply existsb_exists in Hs.
  destruct Hs as [s [Hs Hshape]].
  destruct s as [|x [|z s']]; try discriminate Hshape.
  exists x, j. unfold moves. apply in_flat_map. exists (c, j). split; [exact Hcj|].
  cbn [fst snd].
  change (d_live (with_live charset D)) with (live_of charset D). rewrite Hm.
  apply in_flat_map. exists [x]. split.
  - change (expand charset (with_live charset D) c) with (expand charset D c). exact Hs.
  - left. reflexivity.
Qed.

Theorem with_live_targets_positive : forall charset D i x j w outs_j,
  In (i, x, j, w) (re_arcs charset (with_live charset D)) -> In (j, outs_j) (d_map D) ->
  (forall e1 e2, In e1 (d_map D) -> In e2 (d_map D) -> fst e1 = fst e2 -> e1 = e2) ->
  fanout charset (with_live charset D) j outs_j <> O.
Proof.
  intros charset D i x j w outs_j Harc Hej Huniq.
  apply regex_arcs_single_char in Harc.
  destruct Harc as [outs_i [_ [Hmv _]]].
  apply regex_moves_live in Hmv. destruct Hmv as [Hlive _].
  change (d_live (with_live charset D)) with (live_of charset D) in Hlive.
  apply mem_spec in Hlive.
  unfold fanout.
  change (d_finals (with_live charset D)) with (d_finals D).
  destruct (live_of_justified charset D j Hlive) as [Hf|[outs' [He' Hm]]].
  - apply mem_spec in Hf. unfold memn. rewrite Hf. lia.
  - assert (Heq : (j, outs') = (j, outs_j)) by (apply Huniq; [exact He'|exact Hej|reflexivity]).
    injection Heq as Heq. subst outs'.
    destruct (moves_into_moves charset D outs_j Hm) as [x' [j' Hin]].
    destruct (moves charset (with_live charset D) outs_j) as [|m ms]; [destruct Hin|].
    cbn [length]. lia.
Qed.

Corollary with_live_targets_normalised : forall charset D i x j w outs_j,
  In (i, x, j, w) (re_arcs charset (with_live charset D)) -> In (j, outs_j) (d_map D) ->
  (forall e1 e2, In e1 (d_map D) -> In e2 (d_map D) -> fst e1 = fst e2 -> e1 = e2) ->
  re_mass charset (with_live charset D) (j, outs_j) = 1%Qc.
Proof.
  intros charset D i x j w outs_j Harc Hej Huniq.
  apply regex_locally_normalised. cbn [fst snd].
  exact (with_live_targets_positive charset D i x j w outs_j Harc Hej Huniq).
Qed.

Print Assumptions live_iter_mono.
Print Assumptions live_of_justified.
Print Assumptions with_live_targets_positive.
Print Assumptions with_live_targets_normalised.
