(* Union of grammars over disjoint nonterminal name spaces: each component keeps
   exactly its own weights (rules of the other components are invisible). *)
From Coq Require Import List Arith.
From GV.lib Require Import Semiring BigSum.
From GV.model Require Import Cfg.
From GV.proofs Require Import CfgTrees.
Import ListNotations.
Local Open Scope sr_scope.

Section Union.
Variable S : SR.
Add Ring SRing : (sth S).

Definition nts_of_rules (G : grammar S) : nat -> Prop :=
  fun X => exists r, In r G /\ (rhead r = X \/ In (N X) (rbody r)).

(* rules in front of and behind G whose heads are not nonterminals of G change nothing
   for the nonterminals of G: their sums are empty at these heads, and the bodies of G
   only call nonterminals of G *)
Theorem W_component (Gl G Gr : grammar S) :
  (forall r, In r Gl -> forall X, nts_of_rules G X -> rhead r <> X) ->
  (forall r, In r Gr -> forall X, nts_of_rules G X -> rhead r <> X) ->
  forall h X xs, nts_of_rules G X -> W (Gl ++ G ++ Gr) h X xs = W G h X xs.
Proof.
  intros Hl Hr h. induction h as [|h IH]; intros X xs HX; [reflexivity|].
  rewrite !W_S, !bsum_app.
  rewrite (bsum_head_zero S Gl) by (intros r Hin; exact (Hl r Hin X HX)).
  rewrite (bsum_head_zero S Gr) by (intros r Hin; exact (Hr r Hin X HX)).
  rewrite (bsum_head_ext S G X _ (fun r => rw r * Wb (W G h) (rbody r) xs)); [ring|].
  intros r Hin _. f_equal. apply Wb_ext_in. intros Y ys HY. apply IH.
  exists r. split; [exact Hin|right; exact HY].
Qed.

Corollary union_component_nts : forall (G1 G2 : grammar S),
  (forall r, In r G2 -> forall X, nts_of_rules G1 X -> rhead r <> X) ->
  forall h X xs, nts_of_rules G1 X -> W (G1 ++ G2) h X xs = W G1 h X xs.
Proof. intros G1 G2 H. apply (W_component [] G1 G2); [intros r []|exact H]. Qed.

Corollary union_component_r_nts : forall (G1 G2 : grammar S),
  (forall r, In r G1 -> forall X, nts_of_rules G2 X -> rhead r <> X) ->
  forall h X xs, nts_of_rules G2 X -> W (G1 ++ G2) h X xs = W G2 h X xs.
Proof.
  intros G1 G2 H h X xs HX. rewrite <- (app_nil_r G2) at 1.
  apply (W_component G1 G2 []); [exact H|intros r []|exact HX].
Qed.

End Union.
