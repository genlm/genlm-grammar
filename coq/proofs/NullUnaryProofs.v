(* Equation-system semantics of CFG.unaryremove and CFG._push_null_weights.
   A solution of G is a valuation f with  f X xs = gstep G f X xs  for all X, xs.

   unaryremove K nts G, for a closure table K with K = I + U K on nts (U the matrix of the unary rules):
   one step of the new grammar G' is K applied to the non-unary part of one step of G ([unaryremove_step]); that
   combination satisfies the unary-expanded equation for every f ([unaryremove_expanded]), so every solution of G'
   is a solution of G ([unaryremove_restrict]); the converse needs additive cancellation and K = I + K U as well
   ([unaryremove_extend_cancel]).

   push_null_weights nullw nn s G: a body weight is the sum, over the ways of deleting nullable symbols, of the
   deleted null weights times the weight of the remaining body ([null_expansion_sum]); the valuation [pn_ext],
   which splits f into its empty-string part and the rest, solves the null-free grammar ([push_null_extend]). *)
From Coq Require Import List Arith Bool.
From GV.lib Require Import Semiring BigSum.
From GV.model Require Import Cfg Transform2.
From GV.proofs Require Import UnfoldProofs CkyProofs ShapeProofs FoldProofs.
Import ListNotations.
Local Open Scope sr_scope.

Section NullUnary.
Variable S : SR.
Add Ring NullUnaryRing : (sth S).

(* a rule with an empty body contributes nothing on a non-empty string *)
Lemma term_nil_body f X c t (w : S) h : term S f X (c :: t) (w, h, []) = 0.
Proof. rewrite term_mk. cbn [Wb]. destruct (Nat.eqb h X); [apply smul_0_r|reflexivity]. Qed.

(* the model drops a candidate rule whose weight is zero; such a rule contributes zero anyway *)
Lemma gstep_drop0 (w : S) h b f X xs :
  gstep S (if seqb w 0 then [] else [(w, h, b)]) f X xs = term S f X xs (w, h, b).
Proof.
  unfold gstep. destruct (seqb_reflect S w 0) as [->|_].
  - rewrite bsum_nil, term_mk. destruct (Nat.eqb h X); [symmetry; apply smul_0_l|reflexivity].
  - rewrite bsum_cons, bsum_nil. apply sadd_0_r.
Qed.

Lemma gstep_flat_map {A} (l : list A) (g : A -> grammar S) f X xs :
  gstep S (flat_map g l) f X xs = bsum l (fun a => gstep S (g a) f X xs).
Proof. unfold gstep. apply bsum_flat_map. Qed.

(* the rules of G split by a test *)
Lemma gstep_part (p : rule S -> bool) (G : grammar S) f X xs :
  gstep S G f X xs = bsum G (fun r => if p r then term S f X xs r else 0)
                     + bsum G (fun r => if p r then 0 else term S f X xs r).
Proof.
  unfold gstep. rewrite <- bsum_add. apply bsum_ext. intros r _. unfold term.
  destruct (p r); symmetry; [apply sadd_0_r|apply sadd_0_l].
Qed.

(* ... where the rules that pass the test are unary rules into nts and M r Z is the weight of r
   seen as an edge from X to Z: the first part is the matrix (sum of M over G) applied to f *)
Lemma gstep_unary_part (p : rule S -> bool) (M : rule S -> nat -> S) (G : grammar S) nts f X xs :
  NoDup nts ->
  (forall r, In r G -> p r = true ->
     exists Z0, rbody r = [N Z0] /\ In Z0 nts /\
                forall Z, M r Z = if Nat.eqb (rhead r) X && Nat.eqb Z0 Z then rw r else 0) ->
  (forall r Z, In r G -> p r = false -> M r Z = 0) ->
  gstep S G f X xs = bsum nts (fun Z => bsum G (fun r => M r Z) * f Z xs)
                     + bsum G (fun r => if p r then 0 else term S f X xs r).
Proof.
  intros Hnd Hun Hnon. rewrite (gstep_part p). f_equal.
  transitivity (bsum G (fun r => bsum nts (fun Z => M r Z * f Z xs))).
  - apply bsum_ext. intros r Hr. destruct (p r) eqn:Ep.
    + destruct (Hun r Hr Ep) as (Z0 & Eb & HZ0 & EM).
      rewrite (bsum_single S nts Z0 (fun Z => M r Z * f Z xs) Hnd HZ0).
      * rewrite EM, Nat.eqb_refl, andb_true_r. unfold term. rewrite Eb, Wb_N1.
        symmetry. apply smul_if_l.
      * intros Z _ HZ. apply Nat.eqb_neq in HZ. rewrite EM, (Nat.eqb_sym Z0 Z), HZ, andb_false_r. apply smul_0_l.
    + symmetry. apply bsum_zero. intros Z _. rewrite (Hnon r Z Hr Ep). apply smul_0_l.
  - rewrite bsum_swap. apply bsum_ext. intros Z _. apply bsum_mul_r.
Qed.

(* a table whose row Y satisfies K = I + U K, applied to a vector *)
Lemma closure_apply (l : list nat) (K U : nat -> nat -> S) (v : nat -> S) Y :
  NoDup l -> In Y l ->
  (forall X, In X l -> K Y X = (if Nat.eqb Y X then 1 else 0) + bsum l (fun Z => U Y Z * K Z X)) ->
  bsum l (fun X => K Y X * v X) = v Y + bsum l (fun Z => U Y Z * bsum l (fun X => K Z X * v X)).
Proof. exact (bsum_unit_plus S l Y (K Y) (U Y) v K). Qed.

(* ... and one whose row Y satisfies K = I + K U *)
Lemma closure_apply_r (l : list nat) (K U : nat -> nat -> S) (v : nat -> S) Y :
  NoDup l -> In Y l ->
  (forall X, In X l -> K Y X = (if Nat.eqb Y X then 1 else 0) + bsum l (fun Z => K Y Z * U Z X)) ->
  bsum l (fun X => K Y X * v X) = v Y + bsum l (fun Z => K Y Z * bsum l (fun X => U Z X * v X)).
Proof. exact (bsum_unit_plus S l Y (K Y) (K Y) v U). Qed.

(* weight of rule r seen as an edge of the unary graph towards Z *)
Definition uw (r : rule S) (Z : nat) : S :=
  match rbody r with [N Z'] => if Nat.eqb Z' Z then rw r else 0 | _ => 0 end.

(* U Y Z = total weight of the unary rules Y -> Z *)
Definition Umat (G : grammar S) (Y Z : nat) : S :=
  bsum G (fun r => if Nat.eqb (rhead r) Y then uw r Z else 0).

(* the non-unary part of one step of G *)
Definition NUpart (G : grammar S) (f : nat -> list nat -> S) (Y : nat) (xs : list nat) : S :=
  bsum G (fun r => if is_unary r then 0 else term S f Y xs r).

Lemma is_unary_cases (r : rule S) :
  (exists Z, rbody r = [N Z] /\ is_unary r = true)
  \/ ((forall Z, rbody r <> [N Z]) /\ is_unary r = false).
Proof.
  unfold is_unary. destruct (rbody r) as [|[a|z] [|y t]];
    try (right; split; [intros Z; discriminate|reflexivity]).
  left. exists z. split; reflexivity.
Qed.

Lemma uw_unary (r : rule S) Z0 Z : rbody r = [N Z0] -> uw r Z = if Nat.eqb Z0 Z then rw r else 0.
Proof. unfold uw. intros ->. reflexivity. Qed.

Lemma uw_nonunary (r : rule S) Z : is_unary r = false -> uw r Z = 0.
Proof.
  unfold uw, is_unary. destruct (rbody r) as [|[a|z] [|y t]]; intros H; try reflexivity. discriminate H.
Qed.

Section UnaryRemove.
Variable G : grammar S.
Variable nts : list nat.
Variable K : nat -> nat -> S.
Hypothesis Hnd : NoDup nts.

Lemma gstep_split f Y xs :
  (forall r Z, In r G -> rbody r = [N Z] -> In Z nts) ->
  gstep S G f Y xs = bsum nts (fun Z => Umat G Y Z * f Z xs) + NUpart G f Y xs.
Proof.
  intros Hubody.
  apply (gstep_unary_part is_unary (fun r Z => if Nat.eqb (rhead r) Y then uw r Z else 0) G nts f Y xs Hnd).
  - intros r Hr Eu. destruct (is_unary_cases r) as [[Z0 [Eb _]]|[_ En]]; [|rewrite En in Eu; discriminate Eu].
    exists Z0. split; [exact Eb|]. split; [exact (Hubody r Z0 Hr Eb)|].
    intros Z. rewrite (uw_unary r Z0 Z Eb). destruct (Nat.eqb (rhead r) Y); reflexivity.
  - intros r Z _ Eu. rewrite (uw_nonunary r Z Eu). destruct (Nat.eqb (rhead r) Y); reflexivity.
Qed.

(* one step of the transformed grammar, the zero-weight filter removed *)
Lemma gstep_unaryremove f Y xs :
  gstep S (unaryremove K nts G) f Y xs
  = bsum G (fun r => if is_unary r then 0
                     else bsum nts (fun Y' => if Nat.eqb Y' Y
                                              then K Y' (rhead r) * (rw r * Wb f (rbody r) xs) else 0)).
Proof.
  unfold unaryremove. rewrite gstep_flat_map. apply bsum_ext. intros r _.
  destruct (is_unary r); [reflexivity|].
  rewrite gstep_flat_map. apply bsum_ext. intros Y' _.
  rewrite gstep_drop0, term_mk. destruct (Nat.eqb Y' Y); [symmetry; apply (smul_assoc S)|reflexivity].
Qed.

(* outside nts both grammars have no rule *)
Lemma gstep_unaryremove_notin f Y xs :
  (forall r, In r G -> In (rhead r) nts) -> ~ In Y nts ->
  gstep S (unaryremove K nts G) f Y xs = gstep S G f Y xs.
Proof.
  intros Hheads HY. rewrite (gstep_nohead S G f Y xs) by (intros r Hr E; apply HY; rewrite <- E; apply Hheads; exact Hr).
  rewrite gstep_unaryremove. apply bsum_zero. intros r _.
  destruct (is_unary r); [reflexivity|].
  apply (bsum_pick_absent S nts Y (fun Y' => K Y' (rhead r) * (rw r * Wb f (rbody r) xs)) HY).
Qed.

(* the K-weighted combination of the non-unary parts, rule by rule *)
Lemma K_NUpart f Y xs :
  (forall r, In r G -> is_unary r = false -> In (rhead r) nts) ->
  bsum nts (fun X => K Y X * NUpart G f X xs)
  = bsum G (fun r => if is_unary r then 0 else K Y (rhead r) * (rw r * Wb f (rbody r) xs)).
Proof.
  intros Hheads.
  transitivity (bsum nts (fun X => bsum G (fun r => K Y X * (if is_unary r then 0 else term S f X xs r)))).
  - apply bsum_ext. intros X _. unfold NUpart. symmetry. apply bsum_mul_l.
  - rewrite bsum_swap. apply bsum_ext. intros r Hr. destruct (is_unary r) eqn:Eu.
    + apply bsum_zero. intros X _. apply smul_0_r.
    + rewrite (bsum_single S nts (rhead r) (fun X => K Y X * term S f X xs r) Hnd (Hheads r Hr Eu)).
      * unfold term. rewrite Nat.eqb_refl. reflexivity.
      * intros X _ HX. unfold term. apply Nat.eqb_neq in HX. rewrite (Nat.eqb_sym (rhead r) X), HX. apply smul_0_r.
Qed.

Lemma unaryremove_step_sec f Y xs :
  (forall r, In r G -> is_unary r = false -> In (rhead r) nts) ->
  In Y nts ->
  gstep S (unaryremove K nts G) f Y xs = bsum nts (fun X => K Y X * NUpart G f X xs).
Proof.
  intros Hheads HY. rewrite gstep_unaryremove, (K_NUpart f Y xs Hheads). apply bsum_ext. intros r _.
  destruct (is_unary r); [reflexivity|].
  apply (bsum_pick S nts Y (fun Y' => K Y' (rhead r) * (rw r * Wb f (rbody r) xs)) Hnd HY).
Qed.

(* the K-weighted combination satisfies the unary-expanded equation, whatever f is *)
Lemma unaryremove_expanded f Y xs :
  (forall r, In r G -> is_unary r = false -> In (rhead r) nts) ->
  (forall Y X, In Y nts -> In X nts ->
     K Y X = (if Nat.eqb Y X then 1 else 0) + bsum nts (fun Z => Umat G Y Z * K Z X)) ->
  In Y nts ->
  gstep S (unaryremove K nts G) f Y xs
  = NUpart G f Y xs + bsum nts (fun Z => Umat G Y Z * gstep S (unaryremove K nts G) f Z xs).
Proof.
  intros Hheads HK HY.
  rewrite (unaryremove_step_sec f Y xs Hheads HY).
  rewrite (closure_apply nts K (Umat G) (fun X => NUpart G f X xs) Y Hnd HY (fun X => HK Y X HY)).
  f_equal. apply bsum_ext. intros Z HZ. rewrite (unaryremove_step_sec f Z xs Hheads HZ). reflexivity.
Qed.

Lemma unaryremove_restrict f' :
  (forall r, In r G -> In (rhead r) nts) ->
  (forall r Z, In r G -> rbody r = [N Z] -> In Z nts) ->
  (forall Y X, In Y nts -> In X nts ->
     K Y X = (if Nat.eqb Y X then 1 else 0) + bsum nts (fun Z => Umat G Y Z * K Z X)) ->
  solves S (unaryremove K nts G) f' -> solves S G f'.
Proof.
  intros Hheads Hubody HK Hsol Y xs.
  destruct (in_dec Nat.eq_dec Y nts) as [HY|HY].
  - etransitivity; [exact (Hsol Y xs)|].
    rewrite (unaryremove_expanded f' Y xs (fun r Hr _ => Hheads r Hr) HK HY).
    rewrite (gstep_split f' Y xs Hubody).
    rewrite (bsum_ext S nts (fun Z => Umat G Y Z * gstep S (unaryremove K nts G) f' Z xs)
                            (fun Z => Umat G Y Z * f' Z xs)).
    + apply (sadd_comm S).
    + intros Z _. rewrite <- (Hsol Z xs). reflexivity.
  - rewrite (Hsol Y xs). exact (gstep_unaryremove_notin f' Y xs Hheads HY).
Qed.

(* the converse needs additive cancellation and the right-handed closure equation *)
Lemma unaryremove_extend_cancel_sec f :
  (forall a b c : S, a + b = a + c -> b = c) ->
  (forall r, In r G -> In (rhead r) nts) ->
  (forall r Z, In r G -> rbody r = [N Z] -> In Z nts) ->
  (forall Y X, In Y nts -> In X nts ->
     K Y X = (if Nat.eqb Y X then 1 else 0) + bsum nts (fun Z => K Y Z * Umat G Z X)) ->
  solves S G f -> solves S (unaryremove K nts G) f.
Proof.
  intros Hcancel Hheads Hubody HKr Hsol Y xs.
  destruct (in_dec Nat.eq_dec Y nts) as [HY|HY].
  - rewrite (unaryremove_step_sec f Y xs (fun r Hr _ => Hheads r Hr) HY).
    assert (Hf : forall X, f X xs = bsum nts (fun Z => Umat G X Z * f Z xs) + NUpart G f X xs).
    { intros X. rewrite <- (gstep_split f X xs Hubody). apply Hsol. }
    (* sum_X K Y X * f X xs, expanded through K = I + K U and through f = U f + NU *)
    apply (Hcancel (bsum nts (fun Z => K Y Z * bsum nts (fun X => Umat G Z X * f X xs)))).
    transitivity (bsum nts (fun X => K Y X * f X xs)).
    + rewrite (closure_apply_r nts K (Umat G) (fun X => f X xs) Y Hnd HY (fun X => HKr Y X HY)).
      apply (sadd_comm S).
    + rewrite <- bsum_add. apply bsum_ext. intros X _. rewrite (Hf X). ring.
  - rewrite (gstep_unaryremove_notin f Y xs Hheads HY). apply Hsol.
Qed.

End UnaryRemove.
Section PushNull.
Variable nullw : nat -> S.
Variable nn : nat -> nat.
Variable s : nat.

(* the power-set expansion: if every nonterminal Y of the body splits as
   f Y = [empty string] * nullw Y + f' (NotNull-name of Y), then the body weight under f is
   the sum over the deletion patterns of the deleted null weights times the weight of the
   remaining (renamed) body under f'.  Holds for every xs, empty or not. *)
Lemma null_expansion_sum (f f' : nat -> list nat -> S) (b : list sym) :
  (forall Y ys, In (N Y) b -> f Y ys = nilw S ys * nullw Y + f' (nn_name nullw nn s Y) ys) ->
  forall xs, Wb f b xs = bsum (null_expansions nullw nn s b) (fun e => fst e * Wb f' (snd e) xs).
Proof.
  induction b as [|y rest IH]; intros Hrel xs.
  - cbn [null_expansions]. rewrite bsum_cons, bsum_nil, sadd_0_r. symmetry. apply smul_1_l.
  - (* the split of f at the first symbol, terminal or not *)
    assert (Hy : forall u, Wb f [y] u = Wb f' [nn_sym nullw nn s y] u + nullw_sym nullw y * nilw S u).
    { intros u. destruct y as [a|Y]; cbn [nn_sym nullw_sym].
      - rewrite smul_0_l, sadd_0_r. reflexivity.
      - rewrite !Wb_N1, (Hrel Y u (or_introl eq_refl)), (smul_comm S (nullw Y)). apply (sadd_comm S). }
    specialize (IH (fun Y ys HY => Hrel Y ys (or_intror HY))).
    cbn [null_expansions]. rewrite bsum_app, !bsum_map. cbn [fst snd].
    set (tl := null_expansions nullw nn s rest). set (y' := nn_sym nullw nn s y) in *.
    change (y :: rest) with ([y] ++ rest). rewrite Wb_app.
    rewrite (bsum_ext S (splits xs) _
               (fun p => Wb f' [y'] (fst p) * Wb f rest (snd p)
                         + nullw_sym nullw y * (nilw S (fst p) * Wb f rest (snd p))))
      by (intros p _; rewrite Hy; ring).
    rewrite bsum_add, bsum_mul_l, splits_nilw_l. f_equal.
    + (* keep y *)
      transitivity (bsum (splits xs) (fun p => bsum tl (fun e => Wb f' [y'] (fst p) * (fst e * Wb f' (snd e) (snd p))))).
      { apply bsum_ext. intros p _. rewrite (IH (snd p)). symmetry. apply bsum_mul_l. }
      rewrite bsum_swap. apply bsum_ext. intros e _.
      change (y' :: snd e) with ([y'] ++ snd e). rewrite Wb_app, <- bsum_mul_l.
      apply bsum_ext. intros p _. ring.
    + (* delete y *)
      rewrite (IH xs), <- bsum_mul_l. apply bsum_ext. intros e _. apply (smul_assoc S).
Qed.

(* the empty-string weight of a body is the product of the null weights *)
Lemma Wb_nil_sprod (f : nat -> list nat -> S) :
  (forall X, f X [] = nullw X) ->
  forall b, Wb f b [] = sprod (map (nullw_sym nullw) b).
Proof.
  intros Hf0. induction b as [|[a|Y] rest IH].
  - reflexivity.
  - cbn [Wb map sprod nullw_sym]. ring.
  - cbn [Wb splits map sprod nullw_sym]. rewrite bsum_cons, bsum_nil. cbn [fst snd].
    rewrite Hf0, IH. ring.
Qed.

(* a solution that gives the empty string weight nullw makes nullw satisfy the null equations *)
Lemma null_equation (G : grammar S) (f : nat -> list nat -> S) :
  solves S G f -> (forall X, f X [] = nullw X) ->
  forall X, nullw X = bsum G (fun r => if Nat.eqb (rhead r) X
                                       then rw r * sprod (map (nullw_sym nullw) (rbody r)) else 0).
Proof.
  intros Hsol Hf0 X. rewrite <- (Hf0 X), (Hsol X []). unfold gstep. apply bsum_ext. intros r _.
  rewrite (Wb_nil_sprod f Hf0). reflexivity.
Qed.

(* the rules produced from one rule of G *)
Definition pn_rules (r : rule S) : grammar S :=
  match rbody r with
  | [] => []
  | b => flat_map (fun e => match snd e with
                            | [] => []
                            | nb => if seqb (rw r * fst e) 0 then []
                                    else [(rw r * fst e, nn_name nullw nn s (rhead r), nb)]
                            end) (null_expansions nullw nn s b)
  end.

Lemma push_null_weights_eq (G : grammar S) :
  push_null_weights nullw nn s G
  = (if seqb (nullw s) 0 then [] else [(nullw s, s, [])]) ++ flat_map pn_rules G.
Proof. reflexivity. Qed.

(* one step of the rules produced from r, the zero-weight filter removed: the expansions that keep a symbol *)
Lemma gstep_pn_rules (r : rule S) g Z xs :
  gstep S (pn_rules r) g Z xs
  = bsum (null_expansions nullw nn s (rbody r))
         (fun e => match snd e with
                   | [] => 0
                   | _ => term S g Z xs (rw r * fst e, nn_name nullw nn s (rhead r), snd e)
                   end).
Proof.
  unfold pn_rules. destruct (rbody r) as [|y b]; [symmetry; apply sadd_0_l|].
  rewrite gstep_flat_map. apply bsum_ext. intros e _.
  destruct (snd e) as [|y1 nb]; [reflexivity|]. apply gstep_drop0.
Qed.

Section Ext.
Variable G : grammar S.
Variable f : nat -> list nat -> S.

(* the X with Z = nn X, nullw X <> 0, X <> s (necessarily a head of G) *)
Definition pn_pre (Z : nat) : option nat :=
  find (fun X => Nat.eqb (nn X) Z && negb (seqb (nullw X) 0) && negb (Nat.eqb X s)) (map rhead G).

(* the valuation of the null-free grammar *)
Definition pn_ext (Z : nat) (xs : list nat) : S :=
  if Nat.eqb Z s then f s xs else
  match pn_pre Z with
  | Some X => match xs with [] => 0 | _ => f X xs end
  | None => if seqb (nullw Z) 0 then f Z xs else 0
  end.

Hypothesis Hinj : forall p q, nn p = nn q -> p = q.
Hypothesis Hs_nn : forall X, s <> nn X.
Hypothesis Hhead_nn : forall r X, In r G -> rhead r <> nn X.
Hypothesis Hbody_nn : forall r X, In r G -> ~ In (N (nn X)) (rbody r).
Hypothesis Hbody_s : forall r, In r G -> ~ In (N s) (rbody r).
Hypothesis Hsol : solves S G f.
Hypothesis Hf0 : forall X, f X [] = nullw X.

Lemma nullw_head X : nullw X <> 0 -> In X (map rhead G).
Proof.
  intros Hn. destruct (in_dec Nat.eq_dec X (map rhead G)) as [Hi|Hi]; [exact Hi|].
  exfalso. apply Hn. rewrite <- (Hf0 X), (Hsol X []). apply gstep_nohead.
  intros r Hr E. apply Hi. rewrite <- E. apply in_map. exact Hr.
Qed.

Lemma pn_pre_some Z X : pn_pre Z = Some X -> nn X = Z /\ nullw X <> 0 /\ X <> s.
Proof.
  unfold pn_pre. intros E. apply find_some in E. destruct E as [_ E].
  apply andb_prop in E. destruct E as [E E3]. apply andb_prop in E. destruct E as [E1 E2].
  split; [apply Nat.eqb_eq; exact E1|]. split.
  - destruct (seqb_reflect S (nullw X) 0) as [|Hn]; [discriminate E2|exact Hn].
  - apply Nat.eqb_neq. apply negb_true_iff. exact E3.
Qed.

Lemma pn_pre_nn X : nullw X <> 0 -> X <> s -> pn_pre (nn X) = Some X.
Proof.
  intros Hn Hs. destruct (pn_pre (nn X)) as [X'|] eqn:E.
  - apply pn_pre_some in E. destruct E as [E _]. apply Hinj in E. subst X'. reflexivity.
  - exfalso. unfold pn_pre in E. pose proof (find_none _ _ E X (nullw_head X Hn)) as H. cbv beta in H.
    rewrite Nat.eqb_refl in H.
    destruct (seqb_reflect S (nullw X) 0) as [E2|_]; [exact (Hn E2)|].
    destruct (Nat.eqb_spec X s) as [E3|E3]; [exact (Hs E3)|]. discriminate H.
Qed.

(* the values of pn_ext at the start symbol, at a new name and at an unchanged symbol (stated in props/C06.v) *)
Lemma pn_ext_start xs : pn_ext s xs = f s xs.
Proof. unfold pn_ext. rewrite Nat.eqb_refl. reflexivity. Qed.

Lemma pn_ext_nn X xs : nullw X <> 0 -> X <> s ->
  pn_ext (nn X) xs = match xs with [] => 0 | _ => f X xs end.
Proof.
  intros Hn Hs. unfold pn_ext.
  destruct (Nat.eqb_spec (nn X) s) as [E|_]; [exfalso; exact (Hs_nn X (eq_sym E))|].
  rewrite (pn_pre_nn X Hn Hs). reflexivity.
Qed.

Lemma pn_ext_plain Z xs : Z <> s -> (forall X, Z <> nn X) -> nullw Z = 0 -> pn_ext Z xs = f Z xs.
Proof.
  intros Hs Hnn H0. unfold pn_ext.
  destruct (Nat.eqb_spec Z s) as [E|_]; [exfalso; exact (Hs E)|].
  destruct (pn_pre Z) as [X|] eqn:E.
  - exfalso. apply pn_pre_some in E. destruct E as [E _]. exact (Hnn X (eq_sym E)).
  - destruct (seqb_reflect S (nullw Z) 0); [reflexivity|contradiction].
Qed.

(* The head of G whose rules feed the head Z of the null-free grammar, if any: the
   inverse of nn_name on the symbols that are none of the new names. *)
Definition pn_src (Z : nat) : option nat :=
  if Nat.eqb Z s then Some s else
  match pn_pre Z with
  | Some X => Some X
  | None => if seqb (nullw Z) 0 then Some Z else None
  end.

(* pn_ext on a non-empty and on the empty string *)
Lemma pn_ext_cons Z c t :
  pn_ext Z (c :: t) = match pn_src Z with Some W => f W (c :: t) | None => 0 end.
Proof.
  unfold pn_ext, pn_src. destruct (Nat.eqb Z s); [reflexivity|].
  destruct (pn_pre Z); [reflexivity|]. destruct (seqb (nullw Z) 0); reflexivity.
Qed.

Lemma pn_ext_nil Z : pn_ext Z [] = if Nat.eqb Z s then nullw s else 0.
Proof.
  unfold pn_ext. destruct (Nat.eqb Z s); [apply Hf0|].
  destruct (pn_pre Z) as [X|]; [reflexivity|].
  destruct (seqb_reflect S (nullw Z) 0) as [E0|_]; [|reflexivity].
  rewrite Hf0. exact E0.
Qed.

Lemma pn_src_some Z W : pn_src Z = Some W -> nn_name nullw nn s W = Z.
Proof.
  unfold pn_src, nn_name. destruct (Nat.eqb_spec Z s) as [->|Hs].
  - intros E. injection E as <-. rewrite Nat.eqb_refl, orb_true_r. reflexivity.
  - destruct (pn_pre Z) as [X|] eqn:EP.
    + intros E. injection E as <-. destruct (pn_pre_some Z X EP) as [EX [Hn HXs]].
      destruct (seqb_reflect S (nullw X) 0) as [E0|_]; [destruct (Hn E0)|].
      apply Nat.eqb_neq in HXs. rewrite HXs. exact EX.
    + destruct (seqb (nullw Z) 0) eqn:E0; [|discriminate].
      intros E. injection E as <-. rewrite E0. reflexivity.
Qed.

Lemma pn_src_nn_name Y : (forall X, Y <> nn X) -> pn_src (nn_name nullw nn s Y) = Some Y.
Proof.
  intros Hnn. unfold nn_name.
  destruct (Nat.eqb_spec Y s) as [E|Hs].
  - rewrite orb_true_r, E. unfold pn_src. rewrite Nat.eqb_refl. reflexivity.
  - rewrite orb_false_r. unfold pn_src. destruct (seqb_reflect S (nullw Y) 0) as [E0|E0].
    + apply Nat.eqb_neq in Hs. rewrite Hs.
      destruct (pn_pre Y) as [X|] eqn:EP.
      * exfalso. apply pn_pre_some in EP. exact (Hnn X (eq_sym (proj1 EP))).
      * destruct (seqb_reflect S (nullw Y) 0); [reflexivity|contradiction].
    + destruct (Nat.eqb_spec (nn Y) s) as [E|_]; [destruct (Hs_nn _ (eq_sym E))|].
      rewrite (pn_pre_nn Y E0 Hs). reflexivity.
Qed.

Lemma nn_name_src r Z : In r G ->
  Nat.eqb (nn_name nullw nn s (rhead r)) Z
  = match pn_src Z with Some W => Nat.eqb (rhead r) W | None => false end.
Proof.
  intros Hr. destruct (Nat.eqb_spec (nn_name nullw nn s (rhead r)) Z) as [<-|E].
  - rewrite (pn_src_nn_name (rhead r) (fun X => Hhead_nn r X Hr)). symmetry. apply Nat.eqb_refl.
  - destruct (pn_src Z) as [W|] eqn:EW; [|reflexivity].
    symmetry. apply Nat.eqb_neq. intros HW. apply E. rewrite HW. exact (pn_src_some Z W EW).
Qed.

(* the name of a symbol other than s is not s, so it has no empty-string weight *)
Lemma pn_ext_name_nil Y : Y <> s -> pn_ext (nn_name nullw nn s Y) [] = 0.
Proof.
  intros Hs. rewrite pn_ext_nil. destruct (Nat.eqb_spec (nn_name nullw nn s Y) s) as [E|_]; [|reflexivity].
  exfalso. revert E. unfold nn_name. destruct (seqb (nullw Y) 0 || Nat.eqb Y s); [exact Hs|].
  intros E. exact (Hs_nn Y (eq_sym E)).
Qed.

(* the split of f at a nonterminal that may occur in a body *)
Lemma pn_ext_split Y ys : Y <> s -> (forall X, Y <> nn X) ->
  f Y ys = nilw S ys * nullw Y + pn_ext (nn_name nullw nn s Y) ys.
Proof.
  intros Hs Hnn. destruct ys as [|c t]; unfold nilw.
  - rewrite (pn_ext_name_nil Y Hs), Hf0, smul_1_l. symmetry. apply sadd_0_r.
  - rewrite pn_ext_cons, (pn_src_nn_name Y Hnn), smul_0_l. symmetry. apply sadd_0_l.
Qed.

Lemma body_sym_ok r Y : In r G -> In (N Y) (rbody r) -> Y <> s /\ forall X, Y <> nn X.
Proof.
  intros Hr HY. split.
  - intros E. subst Y. exact (Hbody_s r Hr HY).
  - intros X E. subst Y. exact (Hbody_nn r X Hr HY).
Qed.

(* a kept body is non-empty and each of its symbols needs a non-empty string *)
Lemma Wb_pn_nil r e :
  In r G -> In e (null_expansions nullw nn s (rbody r)) -> snd e <> [] -> Wb pn_ext (snd e) [] = 0.
Proof.
  intros Hr He Hne. destruct (null_exp_sub S nullw nn s (rbody r) e He) as [_ Hsub].
  destruct (snd e) as [|y nb]; [exfalso; apply Hne; reflexivity|].
  destruct (Hsub y (or_introl eq_refl)) as [y0 [Hy0 Ey]]. subst y.
  destruct y0 as [a|Y]; cbn [nn_sym].
  - reflexivity.
  - cbn [Wb splits]. rewrite bsum_cons, bsum_nil. cbn [fst snd].
    rewrite (pn_ext_name_nil Y (proj1 (body_sym_ok r Y Hr Hy0))), sadd_0_r. apply smul_0_l.
Qed.

Lemma gstep_pn_rules_nil r Z : In r G -> gstep S (pn_rules r) pn_ext Z [] = 0.
Proof.
  intros Hr. rewrite gstep_pn_rules. apply bsum_zero. intros e He.
  pose proof (Wb_pn_nil r e Hr He) as H0.
  destruct (snd e) as [|y1 nb]; [reflexivity|].
  rewrite term_mk, H0 by discriminate. destruct (Nat.eqb (nn_name nullw nn s (rhead r)) Z); [apply smul_0_r|reflexivity].
Qed.

(* on a non-empty string the expansions that keep nothing contribute zero anyway, and the sum is null_expansion_sum *)
Lemma gstep_pn_rules_cons r Z c t :
  In r G ->
  gstep S (pn_rules r) pn_ext Z (c :: t)
  = if Nat.eqb (nn_name nullw nn s (rhead r)) Z then rw r * Wb f (rbody r) (c :: t) else 0.
Proof.
  intros Hr. rewrite gstep_pn_rules.
  rewrite (bsum_ext S _ _ (fun e => if Nat.eqb (nn_name nullw nn s (rhead r)) Z
                                    then rw r * (fst e * Wb pn_ext (snd e) (c :: t)) else 0)).
  - destruct (Nat.eqb (nn_name nullw nn s (rhead r)) Z); [|apply bsum_const_zero].
    rewrite bsum_mul_l. f_equal. symmetry. apply null_expansion_sum.
    intros Y ys HY. destruct (body_sym_ok r Y Hr HY) as [Hs Hnn]. exact (pn_ext_split Y ys Hs Hnn).
  - intros e _. destruct (snd e) as [|y1 nb].
    + cbn [Wb]. rewrite !smul_0_r. destruct (Nat.eqb (nn_name nullw nn s (rhead r)) Z); reflexivity.
    + rewrite term_mk. destruct (Nat.eqb (nn_name nullw nn s (rhead r)) Z); [symmetry; apply (smul_assoc S)|reflexivity].
Qed.

(* the split valuation solves the null-free grammar; its values are pn_ext_start, pn_ext_nn, pn_ext_plain *)
Theorem push_null_extend : solves S (push_null_weights nullw nn s G) pn_ext.
Proof.
  intros Z xs. rewrite push_null_weights_eq, gstep_app, gstep_drop0, gstep_flat_map.
  destruct xs as [|c t].
  - rewrite bsum_zero by (intros r Hr; apply gstep_pn_rules_nil; exact Hr).
    rewrite term_mk, pn_ext_nil, (Nat.eqb_sym s Z), sadd_0_r. cbn [Wb].
    destruct (Nat.eqb Z s); [symmetry; apply smul_1_r|reflexivity].
  - rewrite (bsum_ext S G _ (fun r => if Nat.eqb (nn_name nullw nn s (rhead r)) Z
                                      then rw r * Wb f (rbody r) (c :: t) else 0))
      by (intros r Hr; apply gstep_pn_rules_cons; exact Hr).
    rewrite term_nil_body, sadd_0_l, pn_ext_cons.
    destruct (pn_src Z) as [W|] eqn:EW.
    + rewrite (Hsol W (c :: t)). unfold gstep. apply bsum_ext. intros r Hr.
      rewrite (nn_name_src r Z Hr), EW. reflexivity.
    + symmetry. apply bsum_zero. intros r Hr. rewrite (nn_name_src r Z Hr), EW. reflexivity.
Qed.

End Ext.
End PushNull.

End NullUnary.

(* unaryremove: one step of G' is the K-weighted combination of the non-unary part of one step
   of G (the zero-weight filter of the model is invisible).  nts is duplicate-free and contains
   every head of G and every nonterminal that is the body of a unary rule; nothing is assumed
   about K or f outside nts. *)
Theorem unaryremove_step :
  forall (S : SR) (G : grammar S) (nts : list nat) (K : nat -> nat -> S)
         (f : nat -> list nat -> S) (Y : nat) (xs : list nat),
    NoDup nts ->
    (forall r, In r G -> is_unary r = false -> In (rhead r) nts) ->
    In Y nts ->
    gstep S (unaryremove K nts G) f Y xs = bsum nts (fun X => K Y X * NUpart S G f X xs).
Proof. intros S G nts K f Y xs Hnd Hheads HY. apply unaryremove_step_sec; assumption. Qed.

Theorem gstep_unary_split :
  forall (S : SR) (G : grammar S) (nts : list nat) (f : nat -> list nat -> S) (Y : nat) (xs : list nat),
    NoDup nts ->
    (forall r Z, In r G -> rbody r = [N Z] -> In Z nts) ->
    gstep S G f Y xs = bsum nts (fun Z => Umat S G Y Z * f Z xs) + NUpart S G f Y xs.
Proof. intros S G nts f Y xs Hnd Hub. apply gstep_split; assumption. Qed.

(* the converse direction (same f) is available when addition is cancellative and K also
   satisfies the right-handed closure equation K = I + K U *)
Theorem unaryremove_extend_cancel :
  forall (S : SR) (G : grammar S) (nts : list nat) (K : nat -> nat -> S) (f : nat -> list nat -> S),
    (forall a b c : S, a + b = a + c -> b = c) ->
    NoDup nts ->
    (forall r, In r G -> In (rhead r) nts) ->
    (forall r Z, In r G -> rbody r = [N Z] -> In Z nts) ->
    (forall Y X, In Y nts -> In X nts ->
       K Y X = (if Nat.eqb Y X then 1 else 0) + bsum nts (fun Z => K Y Z * Umat S G Z X)) ->
    solves S G f -> solves S (unaryremove K nts G) f.
Proof. intros S G nts K f Hc Hnd Hheads Hub HK Hsol. apply (unaryremove_extend_cancel_sec S G nts K); assumption. Qed.

Print Assumptions unaryremove_step.
Print Assumptions gstep_unary_split.
Print Assumptions unaryremove_expanded.
Print Assumptions unaryremove_restrict.
Print Assumptions unaryremove_extend_cancel.
Print Assumptions null_expansion_sum.
Print Assumptions null_equation.
Print Assumptions push_null_extend.
