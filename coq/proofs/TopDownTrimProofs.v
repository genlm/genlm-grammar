(* CFG._trim(symbols) of cfg.py, regenerated as gen_trim: restricting a grammar to a set [keep] of symbols that
   is closed under the rules that can contribute changes the derivation sum of no kept nonterminal, at any
   height.  This is the step both halves of CFG.trim end with; which set the second half passes (the symbols
   reached from the start symbol) is the subject of ReachProofs.v. *)
From Coq Require Import List PeanoNat BinInt Bool.
From GV.lib Require Import Semiring.
From GV.model Require Import Cfg Transform.
From GV.model Require TopDown.
From GV.gen Require Import Gen_Cfg.
From GV.proofs Require Import TrimProofs GenCfgBridge.
Import ListNotations.
Local Open Scope sr_scope.

Section TopDownTrimProofs.
Variable S : SR.

(* keep is closed under the rules that can contribute: a kept head's rule either has all of its
   body kept, or mentions a non-generating nonterminal (and so has weight zero on every string) *)
Definition td_closed (G : grammar S) (keep : sym -> bool) : Prop :=
  forall r, In r G -> keep (N (rhead r)) = true ->
    forallb keep (rbody r) = true \/ exists Y, In (N Y) (rbody r) /\ ~ In Y (generating G).

Theorem topdown_trim_W : forall (G : grammar S) (keep : sym -> bool), td_closed G keep ->
  forall h X xs, keep (N X) = true -> W (gen_trim S keep G) h X xs = W G h X xs.
Proof.
  intros G keep Hcl. rewrite gen_trim_filter.
  apply (filter_W S G _ (fun X => keep (N X) = true)). intros r Hr Hh.
  rewrite Hh. simpl. destruct (forallb keep (rbody r)) eqn:Eb.
  - intros Y HY. exact (proj1 (forallb_forall _ _) Eb (N Y) HY).
  - destruct (Hcl r Hr Hh) as [Hall|[Y [HY Hng]]]; [congruence|].
    exists Y. split; [exact HY|]. intros h ys. apply nongenerating_W_zero, Hng.
Qed.

Lemma gen_trim_none (keep : sym -> bool) (G : grammar S) : (forall x, keep (N x) = false) -> gen_trim S keep G = [].
Proof.
  intros H. rewrite gen_trim_filter. induction G as [|r t IH]; simpl; [reflexivity|]. rewrite H. exact IH.
Qed.

(* nothing kept: the trimmed grammar is empty, as the code returns when the start symbol is
   non-generating *)
Theorem topdown_trim_dead_start : forall (G : grammar S) (s : nat), ~ In s (generating G) ->
  gen_trim S (fun _ => false) G = [] /\ forall h xs, W G h s xs = 0.
Proof.
  intros G s Hs. split; [apply gen_trim_none; reflexivity|].
  intros h xs. apply nongenerating_W_zero, Hs.
Qed.

Theorem topdown_trim_rules : forall (G : grammar S) keep r, In r (gen_trim S keep G) <->
  In r G /\ keep (N (rhead r)) = true /\ forallb keep (rbody r) = true.
Proof.
  intros G keep r. rewrite gen_trim_filter, filter_In, andb_true_iff. reflexivity.
Qed.

Theorem topdown_trim_is_filter : forall (G : grammar S) keep,
  gen_trim S keep G = filter (fun r => keep (N (rhead r)) && forallb keep (rbody r)) G.
Proof. intros G keep. apply gen_trim_filter. Qed.

End TopDownTrimProofs.
Arguments td_closed {S} G keep.

(* rule lists with the same heads and bodies, in the same order (what the rule-list comparison of the
   correspondence run decides) *)
Theorem shape_eqb_spec : forall (S : SR) (G1 G2 : grammar S),
  TopDown.shape_eqb G1 G2 = true <-> map (fun r => (rhead r, rbody r)) G1 = map (fun r => (rhead r, rbody r)) G2.
Proof.
  intros S. apply list_eqb_map_spec. intros r1 r2.
  rewrite andb_true_iff, Nat.eqb_eq, (list_eqb_spec sym_eqb sym_eqb_eq).
  split; [intros [-> ->]; reflexivity|intros E; injection E; auto].
Qed.

Print Assumptions topdown_trim_W.
Print Assumptions topdown_trim_dead_start.
Print Assumptions topdown_trim_rules.
Print Assumptions topdown_trim_is_filter.
Print Assumptions shape_eqb_spec.

(* a grammar over the rationals, start 0;  0 -> a (1/2) | 1 b (1/3) | 3 (1/2);  1 -> a (1/5);  2 -> b (1/7) [unreachable];
   3 -> 3 (1/2) [non-generating].  keep = reachable from 0 and generating = {0, 1, a, b}. *)
Definition td_ex_G : grammar QcSR :=
  [ ((mkq 1%Z 2%positive : QcSR), O, [T O]);
    (mkq 1%Z 3%positive, O, [N 1%nat; T 1%nat]);
    (mkq 1%Z 5%positive, 1%nat, [T O]);
    (mkq 1%Z 7%positive, 2%nat, [T 1%nat]);
    (mkq 1%Z 2%positive, O, [N 3%nat]);
    (mkq 1%Z 2%positive, 3%nat, [N 3%nat]) ].

Definition td_ex_keep (s : sym) : bool := existsb (sym_eqb s) [N O; N 1%nat; T O; T 1%nat].

Example td_ex_closed : td_closed td_ex_G td_ex_keep.
Proof.
  intros r Hr Hk. unfold td_ex_G in Hr. simpl in Hr.
  assert (H3 : ~ In 3%nat (generating td_ex_G)).
  { vm_compute. intros H. repeat (destruct H as [H|H]; [discriminate H|]). exact H. }
  destruct Hr as [<-|[<-|[<-|[<-|[<-|[<-|[]]]]]]].
  - left; reflexivity.
  - left; reflexivity.
  - left; reflexivity.
  - discriminate Hk.
  - right. exists 3%nat. split; [left; reflexivity|exact H3].
  - discriminate Hk.
Qed.

(* the trimmed grammar: the unreachable rule and the two rules mentioning 3 are gone *)
Example td_ex_trimmed :
  gen_trim QcSR td_ex_keep td_ex_G =
  [ ((mkq 1%Z 2%positive : QcSR), O, [T O]);
    (mkq 1%Z 3%positive, O, [N 1%nat; T 1%nat]);
    (mkq 1%Z 5%positive, 1%nat, [T O]) ].
Proof. vm_compute. reflexivity. Qed.

Example td_ex_instance : forall h xs,
  W (gen_trim QcSR td_ex_keep td_ex_G) h O xs = W td_ex_G h O xs.
Proof. intros h xs. apply topdown_trim_W; [exact td_ex_closed|reflexivity]. Qed.

(* and the common value is not zero: a b has weight 1/3 * 1/5 = 1/15, a has weight 1/2 *)
Example td_ex_value :
  W (gen_trim QcSR td_ex_keep td_ex_G) 3 O [O; 1%nat] = mkq 1%Z 15%positive /\
  W td_ex_G 3 O [O; 1%nat] = mkq 1%Z 15%positive /\
  W td_ex_G 3 O [O] = mkq 1%Z 2%positive.
Proof. vm_compute. repeat split; reflexivity. Qed.

Print Assumptions td_ex_closed.
Print Assumptions td_ex_trimmed.
Print Assumptions td_ex_instance.
Print Assumptions td_ex_value.
