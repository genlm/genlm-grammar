(* The rescaled Earley parser keeps every chart column multiplied by a running positive coefficient
   (earley_rescaled.py: next_col.rescale = num / den * prev_col.rescale).  Whatever non-zero coefficient
   c(ctx) the unnormalised next-token weights of a context carry, the normalised distribution and hence
   every chain-rule probability are those of the unscaled weights. *)
From Coq Require Import List Field.
From GV.lib Require Import Semiring BigSum.
From GV.model Require Import Norm.
From GV.proofs Require Import NormProofs.
Import ListNotations.
Local Open Scope sr_scope.

Section Rescale.
Variable F : FR.
Add Field FField : (fth F).

Definition scaled (c : list nat -> F) (nw : list nat -> nat -> F) : list nat -> nat -> F :=
  fun ctx t => c ctx * nw ctx t.

Lemma zsum_scaled (V : list nat) (eos : nat) c nw ctx :
  zsum V eos (scaled c nw) ctx = c ctx * zsum V eos nw ctx.
Proof. unfold zsum, scaled. apply bsum_mul_l. Qed.

Theorem p_next_rescale_invariant : forall (V : list nat) (eos : nat) (c : list nat -> F)
    (nw : list nat -> nat -> F) (ctx : list nat) (t : nat),
  c ctx <> 0 -> zsum V eos nw ctx <> 0 ->
  p_next V eos (scaled c nw) ctx t = p_next V eos nw ctx t.
Proof.
  intros V eos c nw ctx t Hc Hz. unfold p_next. rewrite zsum_scaled. unfold scaled.
  field. split; assumption.
Qed.

Theorem chain_rescale_invariant : forall (V : list nat) (eos : nat) (c : list nat -> F)
    (nw : list nat -> nat -> F) (xs ctx : list nat),
  (forall k, k <= length xs -> c (ctx ++ firstn k xs) <> 0 /\ zsum V eos nw (ctx ++ firstn k xs) <> 0) ->
  chain V eos (scaled c nw) ctx xs = chain V eos nw ctx xs.
Proof.
  intros V eos c nw xs. set (P := fun l => c l <> 0 /\ zsum V eos nw l <> 0).
  induction xs as [|x xs IH]; intros ctx H;
    destruct (prefixes_hyp_nil P ctx _ H) as [Hc Hz]; cbn [chain].
  - apply p_next_rescale_invariant; assumption.
  - rewrite (p_next_rescale_invariant V eos c nw ctx x Hc Hz). f_equal.
    apply IH. exact (prefixes_hyp_cons P ctx x xs H).
Qed.

End Rescale.

Print Assumptions p_next_rescale_invariant.
Print Assumptions chain_rescale_invariant.
